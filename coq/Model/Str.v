(* Strings as lists of Unicode scalar values.  Rust compares `String`s bytewise in
   UTF-8, which is the lexicographic order of scalar values, so equality, `cmp` and
   `starts_with` on `list N` are faithful; the parsers index by `char`, i.e. by
   element of this list. *)
From Coq Require Export List NArith ZArith Bool.
From Coq Require Import String Ascii Decimal.
Export ListNotations.

Definition str := list N.

Fixpoint s2l (s : string) : str :=
  match s with
  | EmptyString => []
  | String a r => N_of_ascii a :: s2l r
  end.

Fixpoint str_eqb (a b : str) : bool :=
  match a, b with
  | [], [] => true
  | x :: a', y :: b' => N.eqb x y && str_eqb a' b'
  | _, _ => false
  end.

Fixpoint str_cmp (a b : str) : comparison :=
  match a, b with
  | [], [] => Eq
  | [], _ :: _ => Lt
  | _ :: _, [] => Gt
  | x :: a', y :: b' =>
      match N.compare x y with
      | Eq => str_cmp a' b'
      | c => c
      end
  end.

(* Rust `str::starts_with` *)
Fixpoint str_prefix (p s : str) : bool :=
  match p, s with
  | [], _ => true
  | x :: p', y :: s' => N.eqb x y && str_prefix p' s'
  | _ :: _, [] => false
  end.

Lemma str_eqb_eq a b : str_eqb a b = true <-> a = b.
Proof.
  revert b; induction a as [|x a IH]; intros [|y b]; simpl; try (split; [discriminate|discriminate]).
  - split; reflexivity.
  - rewrite andb_true_iff, N.eqb_eq, IH. split; [intros [-> ->]|intro H; inversion H]; auto.
Qed.

Lemma str_eqb_refl a : str_eqb a a = true.
Proof. now apply str_eqb_eq. Qed.

Lemma str_eqb_sym a b : str_eqb a b = str_eqb b a.
Proof.
  revert b; induction a as [|x a IH]; intros [|y b]; simpl; try reflexivity.
  now rewrite N.eqb_sym, IH.
Qed.

(* ---- the last element, the element in the middle ---- *)

Lemma last_default {A} (l : list A) d d' : l <> [] -> last l d = last l d'.
Proof.
  induction l as [|x l IH]; intros H; [now elim H|].
  destruct l as [|y l]; [reflexivity|]. cbn [last] in IH |- *. apply IH. discriminate.
Qed.

Lemma last_cons {A} (x : A) l d : last (x :: l) d = last l x.
Proof. destruct l as [|y l]; [reflexivity|apply (last_default (y :: l)); discriminate]. Qed.

Lemma last_app_cons {A} (a : list A) x b d : last (a ++ x :: b) d = last (x :: b) d.
Proof.
  induction a as [|y a IH]; [reflexivity|].
  rewrite <- app_comm_cons, <- IH. destruct (a ++ x :: b) eqn:E; [destruct a; discriminate|reflexivity].
Qed.

Lemma last_app_nonempty {A} (a b : list A) d : b <> [] -> last (a ++ b) d = last b d.
Proof. intro H. destruct b as [|x b]; [congruence|]. apply last_app_cons. Qed.

Lemma last_app_any {A} (a b : list A) d : last (a ++ b) d = last b (last a d).
Proof.
  destruct b as [|x b]; [now rewrite app_nil_r|].
  rewrite last_app_cons. apply last_default. discriminate.
Qed.

Lemma last_rev_cons {A} (x : A) l d : last (List.rev (x :: l)) d = x.
Proof. simpl. now rewrite last_last. Qed.

Lemma hd_rev {A} (l : list A) d : hd d (List.rev l) = last l d.
Proof.
  induction l as [|x l IH] using rev_ind; simpl; [reflexivity|].
  rewrite rev_app_distr, last_last. reflexivity.
Qed.

Lemma nth_error_mid {A} (a : list A) c b : nth_error (a ++ c :: b) (List.length a) = Some c.
Proof. rewrite nth_error_app2 by apply le_n. now rewrite Nat.sub_diag. Qed.

(* ---- decimal text of integers (Rust `{}` on i64 / usize) ---- *)

Fixpoint uint_digits (u : uint) : str :=
  match u with
  | Nil => []
  | D0 r => 48%N :: uint_digits r
  | D1 r => 49%N :: uint_digits r
  | D2 r => 50%N :: uint_digits r
  | D3 r => 51%N :: uint_digits r
  | D4 r => 52%N :: uint_digits r
  | D5 r => 53%N :: uint_digits r
  | D6 r => 54%N :: uint_digits r
  | D7 r => 55%N :: uint_digits r
  | D8 r => 56%N :: uint_digits r
  | D9 r => 57%N :: uint_digits r
  end.

Definition show_N (n : N) : str :=
  match n with
  | N0 => [48%N]
  | Npos p => uint_digits (Pos.to_uint p)
  end.

Definition show_Z (z : Z) : str :=
  match z with
  | Z0 => [48%N]
  | Zpos p => uint_digits (Pos.to_uint p)
  | Zneg p => 45%N :: uint_digits (Pos.to_uint p)
  end.

Definition ch_space : N := 32%N.

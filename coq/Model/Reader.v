(* src/rule_reader.rs, function by function (the tree with the `fix:` commits of C21):
   strip_comments_at / strip_comments, check_last_char, trim_error_line, unmatched_bracket,
   is_decimal_point, separate_rules, read_facts_and_rules, load_kb_from_file.

   The file is a `list str` of lines as `BufRead::lines` yields them (no `\n`; a `\r\n`
   ending is removed as a whole by `lines`, any other `\r` stays in the line and is white
   space for `trim`).  A line that is not valid UTF-8 (an `Err` item of `lines`) makes the
   Rust function return an error since the commit `fix: a line which cannot be read is an
   error`; such files, and a file that cannot be opened, have no counterpart in a list of
   decoded lines and are outside the model (checked on the implementation alone, gen/C21.py).

   Every slice, index and `usize` subtraction is a checked operation whose failure is the
   result `Panic`; that none of them fails is the theorem `C21_reader_total` (Properties/C21base.v), not an
   assumption of the model.

   Approximation: the `i32` counters round_depth / square_depth / num_quotes are unbounded
   (`Z`, `N`) here; the Rust code (overflow checks on) panics when one of them leaves the
   `i32` range, which needs a file with more than 2^31 - 1 brackets or quotation marks. *)
From Suiron Require Export Model.Str Model.Term Model.Rename Model.PResult.
From Coq Require Import String.
Open Scope N_scope.

(* Rust `Result<T, String>` whose error text IS modelled (this file); the parsers' result
   `presult`, whose error text is not, is in Model/PResult.v (`parse_rule`). *)
Inductive rresult (A : Type) :=
| ROk (a : A)
| RErr (msg : str).
Arguments ROk {A} a.
Arguments RErr {A} msg.

(* ---- characters ---- *)
Definition ch_lparen : N := 40.    (* ( *)
Definition ch_rparen : N := 41.    (* ) *)
Definition ch_lbrack : N := 91.    (* [ *)
Definition ch_rbrack : N := 93.    (* ] *)
Definition ch_quote : N := 34.     (* double quote *)
Definition ch_hash : N := 35.      (* # *)
Definition ch_percent : N := 37.   (* % *)
Definition ch_slash : N := 47.     (* / *)
Definition ch_period : N := 46.    (* . *)
Definition ch_dash : N := 45.      (* - *)
Definition ch_comma : N := 44.     (* , *)
Definition ch_semicolon : N := 59. (* ; *)
Definition ch_equals : N := 61.    (* = *)
Definition ch_x : N := 120.        (* x *)

(* `ch >= '0' && ch <= '9'` *)
Definition rd_is_digit (c : N) : bool := (48 <=? c) && (c <=? 57).

(* `char::is_whitespace`: the Unicode property White_Space - exact for every scalar value
   (U+0009-000D, 0020, 0085, 00A0, 1680, 2000-200A, 2028, 2029, 202F, 205F, 3000). *)
Definition rd_is_ws (c : N) : bool :=
  ((9 <=? c) && (c <=? 13)) || (c =? 32) || (c =? 133) || (c =? 160) || (c =? 5760) ||
  ((8192 <=? c) && (c <=? 8202)) || (c =? 8232) || (c =? 8233) || (c =? 8239) ||
  (c =? 8287) || (c =? 12288).

(* `str::trim_start`, `str::trim` *)
Fixpoint rd_trim_start (s : str) : str :=
  match s with
  | [] => []
  | c :: r => if rd_is_ws c then rd_trim_start r else s
  end.
Definition rd_trim_end (s : str) : str := rev (rd_trim_start (rev s)).
Definition rd_trim (s : str) : str := rd_trim_end (rd_trim_start s).

(* ---- checked operations on `Vec<char>` / `usize` ---- *)
Definition rd_slice_to (s : str) (n : nat) : res str :=      (* chrs[0..n] *)
  if (n <=? List.length s)%nat then Ok (firstn n s) else Panic.
Definition rd_index (s : str) (i : nat) : res N :=            (* chrs[i] *)
  match nth_error s i with
  | Some c => Ok c
  | None => Panic
  end.
Definition rd_usub (a b : nat) : res nat :=                   (* a - b on usize *)
  if (b <=? a)%nat then Ok (a - b)%nat else Panic.

(* ---- strip_comments_at ----
   the `for (i, ch) in chrs.iter().enumerate()` loop; the result is `Some index` when it
   left through a `break` (has_comment), and the two depths as the loop leaves them *)
Fixpoint sc_loop (rest : str) (i : nat) (rd sd : Z) (inq : bool) (prev : N)
  : res (option nat * Z * Z) :=
  match rest with
  | [] => Ok (None, rd, sd)
  | ch :: rest' =>
      if ch =? ch_lparen then sc_loop rest' (S i) (rd + 1)%Z sd inq ch
      else if ch =? ch_lbrack then sc_loop rest' (S i) rd (sd + 1)%Z inq ch
      else if ch =? ch_rparen then sc_loop rest' (S i) (rd - 1)%Z sd inq ch
      else if ch =? ch_rbrack then sc_loop rest' (S i) rd (sd - 1)%Z inq ch
      else if ch =? ch_quote then sc_loop rest' (S i) rd sd (negb inq) ch
      else if (rd =? 0)%Z && (sd =? 0)%Z && negb inq then
        if (ch =? ch_hash) || (ch =? ch_percent) then Ok (Some i, rd, sd)
        else if (ch =? ch_slash) && (prev =? ch_slash) then
          do j <- rd_usub i 1; Ok (Some j, rd, sd)
        else sc_loop rest' (S i) rd sd inq ch
      else sc_loop rest' (S i) rd sd inq ch
  end.

(* returns the stripped line and the new values of *round_depth, *square_depth *)
Definition strip_comments_at (line : str) (rd sd : Z) : res (str * Z * Z) :=
  do r <- sc_loop line 0 rd sd false ch_x;
  let '(idx, rd', sd') := r in
  match idx with
  | Some index => do s <- rd_slice_to line index; Ok (rd_trim s, rd', sd')
  | None => Ok (rd_trim line, rd', sd')
  end.

Definition strip_comments (line : str) : res str :=
  do r <- strip_comments_at line 0 0; Ok (fst (fst r)).

(* ---- check_last_char ---- *)
Definition check_last_char (line : str) (num : N) : res (option str) :=
  let length := List.length line in
  if (0 <? length)%nat then
    do k <- rd_usub length 1;
    do last <- rd_index line k;
    if negb (last =? ch_dash) && negb (last =? ch_comma) && negb (last =? ch_period) &&
       negb (last =? ch_equals) && negb (last =? ch_semicolon)
    then Ok (Some (s2l "Check end of line " ++ show_N num ++ s2l ": " ++ line))
    else Ok None
  else Ok None.

(* ---- trim_error_line ---- *)
Fixpoint tel_loop (rest : str) (index : nat) : nat :=
  match rest with
  | [] => index
  | ch :: rest' =>
      if ch =? ch_period then S index
      else if (index =? 100)%nat then index
      else tel_loop rest' (S index)
  end.
Definition trim_error_line (chrs : str) : res str := rd_slice_to chrs (tel_loop chrs 0).

(* ---- unmatched_bracket ---- *)
Definition unmatched_bracket (error_line : str) (rd sd : Z) : res (option str) :=
  if (rd =? 0)%Z && (sd =? 0)%Z then Ok None
  else
    let msg :=
      if (0 <? rd)%Z then s2l "Unmatched parenthesis: ("
      else if (rd <? 0)%Z then s2l "Unmatched parenthesis: )"
      else if (0 <? sd)%Z then s2l "Unmatched bracket: ["
      else if (sd <? 0)%Z then s2l "Unmatched bracket: ]"
      else [] in
    let chrs := rd_trim_start error_line in
    do msg2 <- (if (List.length chrs =? 0)%nat then Ok (s2l "Check start of file.")
                else do s <- trim_error_line chrs; Ok (s2l "Check: " ++ s));
    Ok (Some (msg ++ [10] ++ msg2)).

(* ---- is_decimal_point ---- *)
Definition is_decimal_point (chrs : str) (index : nat) : res bool :=
  if (index =? 0)%nat || (List.length chrs <=? index + 1)%nat then Ok false
  else
    do k <- rd_usub index 1;
    do before <- rd_index chrs k;
    do after <- rd_index chrs (index + 1);
    Ok (rd_is_digit before && rd_is_digit after).

(* ---- separate_rules ----
   the `for (i, ch) in chrs.iter().enumerate()` loop; `num_quotes % 2 == 0` is `N.even` *)
Fixpoint sr_loop (chrs rest : str) (i : nat) (rule_str : str) (rules : list str)
         (rd sd : Z) (nq : N) : res (list str * str * Z * Z) :=
  match rest with
  | [] => Ok (rules, rule_str, rd, sd)
  | ch :: rest' =>
      let rule_str := rule_str ++ [ch] in
      do ends <- (if (ch =? ch_period) && (rd =? 0)%Z && (sd =? 0)%Z && N.even nq
                  then do d <- is_decimal_point chrs i; Ok (negb d)
                  else Ok false);
      if ends then sr_loop chrs rest' (S i) [] (rules ++ [rule_str]) rd sd nq
      else if ch =? ch_lparen then sr_loop chrs rest' (S i) rule_str rules (rd + 1)%Z sd nq
      else if ch =? ch_lbrack then sr_loop chrs rest' (S i) rule_str rules rd (sd + 1)%Z nq
      else if ch =? ch_rparen then sr_loop chrs rest' (S i) rule_str rules (rd - 1)%Z sd nq
      else if ch =? ch_rbrack then sr_loop chrs rest' (S i) rule_str rules rd (sd - 1)%Z nq
      else if ch =? ch_quote then sr_loop chrs rest' (S i) rule_str rules rd sd (nq + 1)
      else sr_loop chrs rest' (S i) rule_str rules rd sd nq
  end.

Definition separate_rules (text : str) : res (rresult (list str)) :=
  do r <- sr_loop text text 0 [] [] 0%Z 0%Z 0;
  let '(rules, rule_str, rd, sd) := r in
  do u <- unmatched_bracket rule_str rd sd;
  match u with
  | Some msg => Ok (RErr msg)
  | None =>
      let rest := rd_trim rule_str in
      if (0 <? List.length rest)%nat then
        do s <- trim_error_line rest;
        Ok (RErr (s2l "Missing period after: " ++ s))
      else Ok (ROk rules)
  end.

(* ---- read_facts_and_rules ----
   the `for line in lines` loop: result is the long line, or the error of check_last_char *)
Fixpoint rf_loop (lines : list str) (line_number : N) (long_line : str) (rd sd : Z)
  : res (rresult str) :=
  match lines with
  | [] => Ok (ROk long_line)
  | line0 :: rest =>
      do r <- strip_comments_at line0 rd sd;
      let '(line, rd', sd') := r in
      if (0 <? List.length line)%nat then
        do c <- check_last_char line line_number;
        match c with
        | Some msg => Ok (RErr msg)
        | None =>
            let long_line :=
              (if (0 <? List.length long_line)%nat then long_line ++ [ch_space] else long_line)
              ++ line in
            rf_loop rest (line_number + 1) long_line rd' sd'
        end
      else rf_loop rest (line_number + 1) long_line rd' sd'
  end.

Definition read_facts_and_rules (lines : list str) : res (rresult (list str)) :=
  do r <- rf_loop lines 1 [] 0%Z 0%Z;
  match r with
  | RErr msg => Ok (RErr msg)
  | ROk long_line =>
      do s <- separate_rules long_line;
      match s with
      | ROk rules => Ok (ROk (map rd_trim rules))
      | RErr msg => Ok (RErr msg)
      end
  end.

(* ---- load_kb_from_file ----
   `parse_rule` (src/rule.rs) is modelled elsewhere; here it is a parameter.  The result is
   the knowledge base as the call leaves it and `true` for `None` (no error) / `false` for
   `Some(message)`; after an error the rules parsed before it stay in the knowledge base. *)
Section Load.
  Variable parse_rule : str -> res (presult rule).

  Fixpoint lk_loop (rules : list str) (kb : kbase) : res (kbase * bool) :=
    match rules with
    | [] => Ok (kb, true)
    | rule_str :: rest =>
        do p <- parse_rule rule_str;
        match p with
        | POk rule => do kb' <- add_rules kb [rule]; lk_loop rest kb'
        | PErr => Ok (kb, false)
        end
    end.

  Definition load_kb_from_file (kb : kbase) (lines : list str) : res (kbase * bool) :=
    do r <- read_facts_and_rules lines;
    match r with
    | RErr _ => Ok (kb, false)
    | ROk rules => lk_loop rules kb
    end.
End Load.

(* The resumable search as a big-step relation.  `Next nd w nd' sol c w'`: a request to node nd
   in world w leaves the node as nd', answers sol, reports the cut signal c and leaves the world w';
   `AndLoop` and `CallLoop` are the same for the two loops.  One constructor per path through
   next_body / and_body / call_body (Model/Solve.v), in the order of the code.  On the paths behind
   the test of no_backtracking the flag of the node is known to be false, so it is written so.

   `next_Next`: every finished run of the fuelled functions is a derivation.  Invariants of the
   machine are proved by induction on derivations (`Next_mut`), where the runs that panic or run out
   of fuel do not occur and every recursive call comes with its induction hypothesis.

   `Made g w nd w'` says how the node of a goal was made (make_node finished with it: `make_node_Made`,
   `Made_make_node`).  The constructors of Next keep the equations `make_node .. = Ok ..` of the code;
   Made is there so that a property of made nodes is proved by induction on the way the node was made
   (make_node_pnode, make_node_nok, make_node_ncut, quiet_make_node). *)
From Suiron Require Import Model.Term Model.Subst Model.Show Model.Unify Model.Builtins Model.Rename
  Model.Solve Proofs.RenameProofs.
Open Scope N_scope.

Inductive Made (kb : kbase) (ss : subst) : goal -> world -> node -> world -> Prop :=
| Made_op k h tl w hn w' : Made kb ss h w hn w' ->
    Made kb ss (GOp k (h :: tl)) w
         (NOp k ss false true (Some hn) None (match k with OAnd | OOr => Some tl | _ => None end)) w'
| Made_bip f ts w : Made kb ss (GBip f ts) w (NBip f ts ss false true) w
| Made_call t key w : term_key t = Ok key ->
    Made kb ss (GCall t) w (NCall t ss false None 0 (fst (count_rules kb key w))) (snd (count_rules kb key w)).

Lemma make_node_Made kb ss : forall g w nd w', make_node kb g ss w = Ok (nd, w') -> Made kb ss g w nd w'.
Proof.
  induction g as [k gs Hgs|f ts|t|] using goal_ind'; intros w nd w' H; try discriminate.
  - destruct gs as [|h tl]; [destruct k; discriminate|]. inversion Hgs as [|? ? Hh _]; subst.
    destruct k; cbn [make_node] in H;
      (destruct (make_node kb h ss w) as [[hn w1]| |] eqn:E; cbn [bind] in H; try discriminate);
      injection H as <- <-; exact (Made_op _ _ _ _ _ _ _ _ (Hh _ _ _ E)).
  - injection H as <- <-. constructor.
  - cbn [make_node] in H. destruct (term_key t) as [key| |] eqn:Ek; cbn [bind] in H; try discriminate.
    rewrite (surjective_pairing (count_rules kb key w)) in H. injection H as <- <-. now constructor.
Qed.

Lemma Made_make_node kb ss g w nd w' : Made kb ss g w nd w' -> make_node kb g ss w = Ok (nd, w').
Proof.
  induction 1 as [k h tl w hn w' _ IH|f ts w|t key w Hk].
  - destruct k; cbn [make_node]; now rewrite IH.
  - reflexivity.
  - cbn [make_node]. rewrite Hk. cbn [bind]. now destruct (count_rules kb key w).
Qed.

(* one direction of CompareProofs.bind_Ok, so that the engine files need not import the comparison files *)
Lemma bind_Ok_inv {A B} (e : res A) (k : A -> res B) v : bind e k = Ok v -> exists a, e = Ok a /\ k a = Ok v.
Proof. destruct e; cbn [bind]; [eauto|discriminate..]. Qed.
(* take `bind e k = Ok r` apart; by a lemma, so that the proof term does not repeat H in a `match` *)
Tactic Notation "ok" hyp(H) "as" simple_intropattern(p) :=
  apply bind_Ok_inv in H as (p & ?E & H); cbv beta iota in H.

Section Rel.
  Variable kb : kbase.
  Variable bf : nat.

  Inductive Next : node -> world -> node -> option subst -> bool -> world -> Prop :=
  | N_nobt nd w : node_nobt nd = true -> Next nd w nd None false w
  | N_bip_spent fn ts ss w : Next (NBip fn ts ss false false) w (NBip fn ts ss false false) None false w
  | N_bip fn ts ss w r : run_bip bf fn ts ss = Ok r ->
      Next (NBip fn ts ss false true) w
           (NBip fn ts ss (br_cut r) false) (br_sol r) (br_cut r) (w_print w (br_out r))
  | N_not_spent ss h t o w :
      Next (NOp ONot ss false false h t o) w (NOp ONot ss false false h t o) None false w
  | N_not ss h t o w h' sol c w1 : Next h w h' sol c w1 ->
      Next (NOp ONot ss false true (Some h) t o) w
           (NOp ONot ss c false (Some (if c then set_nobt h' else h')) t o)
           (match sol with Some _ => None | None => Some ss end) c w1
  | N_time_spent ss h t o w :
      Next (NOp OTime ss false false h t o) w (NOp OTime ss false false h t o) None false w
  | N_time ss h t o w h' sol c w1 : Next h w h' sol c w1 ->
      Next (NOp OTime ss false true (Some h) t o) w
           (NOp OTime ss c false (Some (if c then set_nobt h' else h')) t o)
           sol c (w_print w1 elapsed_token)
  | N_and_tail ss more head t o w t' s c w1 : Next t w t' (Some s) c w1 ->
      Next (NOp OAnd ss false more head (Some t) o) w
           (NOp OAnd ss c more (if c then set_nobt_opt head else head) (Some t') o) (Some s) c w1
  | N_and_tail_none ss more head t o w t' c w1 nd' sol c' w' : Next t w t' None c w1 ->
      AndLoop ss c more (if c then set_nobt_opt head else head) (Some t') o c w1 nd' sol c' w' ->
      Next (NOp OAnd ss false more head (Some t) o) w nd' sol c' w'
  | N_and ss more head o w nd' sol c' w' :
      AndLoop ss false more head None o false w nd' sol c' w' ->
      Next (NOp OAnd ss false more head None o) w nd' sol c' w'
  | N_or_tail ss more head t o w t' sol c w1 : Next t w t' sol c w1 ->
      Next (NOp OOr ss false more head (Some t) o) w
           (NOp OOr ss c more (if c then set_nobt_opt head else head) (Some t') o) sol c w1
  | N_or_empty ss more o w :
      Next (NOp OOr ss false more None None o) w (NOp OOr ss false more None None o) None false w
  | N_or_head ss more h o w h' s c w1 : Next h w h' (Some s) c w1 ->
      Next (NOp OOr ss false more (Some h) None o) w
           (NOp OOr ss c more (Some (if c then set_nobt h' else h')) None o) (Some s) c w1
  | N_or_last_none ss more h w h' c w1 : Next h w h' None c w1 ->
      Next (NOp OOr ss false more (Some h) None None) w
           (NOp OOr ss c more (Some (if c then set_nobt h' else h')) None None) None c w1
  | N_or_last_nil ss more h w h' c w1 : Next h w h' None c w1 ->
      Next (NOp OOr ss false more (Some h) None (Some [])) w
           (NOp OOr ss c more (Some (if c then set_nobt h' else h')) None (Some [])) None c w1
  | N_or_last_cut ss more h g tl w h' w1 : Next h w h' None true w1 ->
      Next (NOp OOr ss false more (Some h) None (Some (g :: tl))) w
           (NOp OOr ss true more (Some (set_nobt h')) None (Some (g :: tl))) None true w1
  | N_or_next ss more h g tl w h' w1 t w2 t' sol c w3 : Next h w h' None false w1 ->
      make_node kb (GOp OOr (g :: tl)) ss w1 = Ok (t, w2) -> Next t w2 t' sol c w3 ->
      Next (NOp OOr ss false more (Some h) None (Some (g :: tl))) w
           (NOp OOr ss c more (Some (if c then set_nobt h' else h')) (Some t') (Some (g :: tl))) sol c w3
  | N_call_child t ss c0 idx n w c1 s c w1 : Next c0 w c1 (Some s) c w1 ->
      Next (NCall t ss false (Some c0) idx n) w (NCall t ss c (Some c1) idx n) (Some s) false w1
  | N_call_child_none t ss c0 idx n w c1 c w1 nd' sol c' w' : Next c0 w c1 None c w1 ->
      CallLoop t ss c None idx n w1 nd' sol c' w' ->
      Next (NCall t ss false (Some c0) idx n) w nd' sol c' w'
  | N_call t ss idx n w nd' sol c' w' : CallLoop t ss false None idx n w nd' sol c' w' ->
      Next (NCall t ss false None idx n) w nd' sol c' w'

  (* `acc`: a cut has already run during this request *)
  with AndLoop : subst -> bool -> bool -> option node -> option node -> option (list goal) -> bool ->
                 world -> node -> option subst -> bool -> world -> Prop :=
  | A_none ss nobt more tail o acc w :
      AndLoop ss nobt more None tail o acc w (NOp OAnd ss nobt more None tail o) None acc w
  | A_fail ss nobt more h tail o acc w h' c w1 : Next h w h' None c w1 ->
      AndLoop ss nobt more (Some h) tail o acc w
              (NOp OAnd ss (nobt || c) more (Some (if c then set_nobt h' else h')) tail o)
              None (acc || c) w1
  | A_last_none ss nobt more h tail acc w h' s c w1 : Next h w h' (Some s) c w1 ->
      AndLoop ss nobt more (Some h) tail None acc w
              (NOp OAnd ss (nobt || c) more (Some (if c then set_nobt h' else h')) tail None)
              (Some s) (acc || c) w1
  | A_last_nil ss nobt more h tail acc w h' s c w1 : Next h w h' (Some s) c w1 ->
      AndLoop ss nobt more (Some h) tail (Some []) acc w
              (NOp OAnd ss (nobt || c) more (Some (if c then set_nobt h' else h')) tail (Some []))
              (Some s) (acc || c) w1
  | A_tail ss nobt more h tail g tl acc w h' s c w1 t w2 t' s2 c2 w3 : Next h w h' (Some s) c w1 ->
      make_node kb (GOp OAnd (g :: tl)) s w1 = Ok (t, w2) -> Next t w2 t' (Some s2) c2 w3 ->
      AndLoop ss nobt more (Some h) tail (Some (g :: tl)) acc w
              (NOp OAnd ss (nobt || c || c2) more
                   (Some (if c2 then set_nobt (if c then set_nobt h' else h') else if c then set_nobt h' else h'))
                   (Some t') (Some (g :: tl)))
              (Some s2) (acc || c || c2) w3
  | A_loop ss nobt more h tail g tl acc w h' s c w1 t w2 t' c2 w3 nd' sol c' w' :
      Next h w h' (Some s) c w1 ->
      make_node kb (GOp OAnd (g :: tl)) s w1 = Ok (t, w2) -> Next t w2 t' None c2 w3 ->
      AndLoop ss (nobt || c || c2) more
              (Some (if c2 then set_nobt (if c then set_nobt h' else h') else if c then set_nobt h' else h'))
              (Some t') (Some (g :: tl)) (acc || c || c2) w3 nd' sol c' w' ->
      AndLoop ss nobt more (Some h) tail (Some (g :: tl)) acc w nd' sol c' w'

  with CallLoop : term -> subst -> bool -> option node -> N -> N -> world ->
                  node -> option subst -> bool -> world -> Prop :=
  | C_nobt t ss child idx n w :
      CallLoop t ss true child idx n w (NCall t ss true child idx n) None false w
  | C_end t ss child idx n w : n <= idx ->
      CallLoop t ss false child idx n w (NCall t ss false child idx n) None false w
  | C_skip t ss child idx n w key r ctr nd' sol c' w' : idx < n ->
      term_key t = Ok key -> get_rule kb key idx (next_id w) = Ok (r, ctr) ->
      unify bf (r_head r) t ss = Ok None ->
      CallLoop t ss false child (idx + 1) n (w_set_id (w_set_id w ctr) (next_id w)) nd' sol c' w' ->
      CallLoop t ss false child idx n w nd' sol c' w'
  | C_fact t ss child idx n w key r ctr s : idx < n ->
      term_key t = Ok key -> get_rule kb key idx (next_id w) = Ok (r, ctr) ->
      unify bf (r_head r) t ss = Ok (Some s) -> is_gnil (r_body r) = true ->
      CallLoop t ss false child idx n w (NCall t ss false child (idx + 1) n) (Some s) false (w_set_id w ctr)
  | C_rule t ss child idx n w key r ctr s c0 w2 c1 s2 c w3 : idx < n ->
      term_key t = Ok key -> get_rule kb key idx (next_id w) = Ok (r, ctr) ->
      unify bf (r_head r) t ss = Ok (Some s) -> is_gnil (r_body r) = false ->
      make_node kb (r_body r) s (w_set_id w ctr) = Ok (c0, w2) -> Next c0 w2 c1 (Some s2) c w3 ->
      CallLoop t ss false child idx n w (NCall t ss c (Some c1) (idx + 1) n) (Some s2) false w3
  | C_rule_none t ss child idx n w key r ctr s c0 w2 c1 c w3 nd' sol c' w' : idx < n ->
      term_key t = Ok key -> get_rule kb key idx (next_id w) = Ok (r, ctr) ->
      unify bf (r_head r) t ss = Ok (Some s) -> is_gnil (r_body r) = false ->
      make_node kb (r_body r) s (w_set_id w ctr) = Ok (c0, w2) -> Next c0 w2 c1 None c w3 ->
      CallLoop t ss c (Some c1) (idx + 1) n w3 nd' sol c' w' ->
      CallLoop t ss false child idx n w nd' sol c' w'.

  Scheme Next_ind' := Minimality for Next Sort Prop
    with AndLoop_ind' := Minimality for AndLoop Sort Prop
    with CallLoop_ind' := Minimality for CallLoop Sort Prop.
  Combined Scheme Next_mut from Next_ind', AndLoop_ind', CallLoop_ind'.

  (* the path taken is that of constructor C *)
  Ltac path H C := try injection H as <- <- <- <-; eapply C; eauto.

  Lemma next_Next : forall F,
    (forall nd w nd' sol c w', next kb bf F nd w = Ok (nd', sol, c, w') -> Next nd w nd' sol c w') /\
    (forall ss nobt more head tail o acc w nd' sol c w',
       and_loop kb bf F ss nobt more head tail o acc w = Ok (nd', sol, c, w') ->
       AndLoop ss nobt more head tail o acc w nd' sol c w') /\
    (forall t ss nobt child idx n w nd' sol c w',
       call_loop kb bf F t ss nobt child idx n w = Ok (nd', sol, c, w') ->
       CallLoop t ss nobt child idx n w nd' sol c w').
  Proof.
    induction F as [|F (IHn & IHa & IHc)]; [repeat split; discriminate|].
    split; [|split].
    - intros nd w nd' sol c w' H. rewrite next_S in H.
      (* the node is taken apart while H is still folded: every `destruct` builds a `match` whose return
         clause repeats H, and H is small only as long as next_body is not unfolded in it *)
      destruct nd as [t ss nobt child idx n|k ss nobt more head tail o|fn ts ss nobt more];
        (destruct nobt; [path H N_nobt|]).
      + destruct child as [c0|]; unfold next_body in H; cbn [node_nobt orb] in H; [|path H N_call].
        ok H as [[[c1 o] c2] w1]. destruct o; [path H N_call_child|path H N_call_child_none].
      + destruct k.
        * destruct tail as [t0|]; unfold next_body in H; cbn [node_nobt orb] in H; [|path H N_and].
          ok H as [[[t1 o1] c1] w1]. destruct o1; [path H N_and_tail|path H N_and_tail_none].
        * destruct tail as [t0|]; [|destruct head as [h|]]; unfold next_body in H; cbn [node_nobt orb] in H;
            [ok H as [[[t1 o1] c1] w1]; path H N_or_tail| |path H N_or_empty].
          ok H as [[[h1 o1] c1] w1]. destruct o1; [path H N_or_head|].
          destruct o as [[|g tl]|]; [path H N_or_last_nil| |path H N_or_last_none].
          cbn [length Nat.eqb] in H. destruct c1; [path H N_or_last_cut|].
          ok H as [t1 w2]. ok H as [[[t2 o2] c2] w3]. path H N_or_next.
        * destruct more; [destruct head as [h|]|]; unfold next_body in H; cbn [node_nobt orb negb] in H;
            [|discriminate H|path H N_time_spent].
          ok H as [[[h1 o1] c1] w1]. path H N_time.
        * destruct more; [destruct head as [h|]|]; unfold next_body in H; cbn [node_nobt orb negb] in H;
            [|discriminate H|path H N_not_spent].
          ok H as [[[h1 o1] c1] w1]. path H N_not.
      + destruct more; unfold next_body in H; cbn [node_nobt orb negb] in H; [|path H N_bip_spent].
        ok H as r. path H N_bip.
    - intros ss nobt more head tail o acc w nd' sol c w' H. rewrite and_loop_S in H.
      destruct head as [h|]; unfold and_body in H; [|path H A_none]. ok H as [[[h1 o1] c1] w1]. destruct o1; [|path H A_fail].
      destruct o as [[|g tl]|]; [path H A_last_nil| |path H A_last_none].
      cbn [length Nat.eqb] in H. ok H as [t1 w2]. ok H as [[[t2 o2] c2] w3].
      destruct o2; [path H A_tail|path H A_loop].
    - intros t ss nobt child idx n w nd' sol c w' H. rewrite call_loop_S in H.
      destruct nobt; unfold call_body in H; [path H C_nobt|]. destruct (N.leb_spec n idx); [path H C_end|].
      ok H as key. ok H as [r ctr]. ok H as u. destruct u as [s|]; [|path H C_skip].
      destruct (is_gnil (r_body r)) eqn:Eg; [path H C_fact|].
      ok H as [c0 w2]. ok H as [[[c1 o1] c2] w3]. destruct o1; [path H C_rule|path H C_rule_none].
  Qed.

  Lemma next_sound F nd w nd' sol c w' :
    next kb bf F nd w = Ok (nd', sol, c, w') -> Next nd w nd' sol c w'.
  Proof. apply next_Next. Qed.
End Rel.

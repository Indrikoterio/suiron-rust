(* C11, second half, for the ENGINE MODEL itself (Model/Solve.v): one request `next` on related
   solution nodes gives related nodes, related answers, the same cut signal and related worlds;
   hence any number of requests on a query gives the same answers up to the names of variables -
   also for queries with infinitely many answers, where the reference search of Spec/SpecCut.v
   (Proofs/NamesSearch.v) says nothing.  Same hypotheses as there: kb_renamed, okkb. *)
From Coq Require Import Lia.
From Suiron Require Import Model.Term Model.Subst Model.Show Model.Lists Model.Arith Model.Unify
  Model.Compare Model.Builtins Model.Rename Model.Solve Spec.SpecCut
  Proofs.RenameProofs Proofs.RenameNames Proofs.NamesRel Proofs.NamesUnify Proofs.NamesBuiltins
  Proofs.NamesSearch Proofs.SolveFrame.
Open Scope N_scope.

Inductive optrel {A B} (R : A -> B -> Prop) : option A -> option B -> Prop :=
| optrel_none : optrel R None None
| optrel_some a b : R a b -> optrel R (Some a) (Some b).

Inductive simn (V : vrel) : node -> node -> Prop :=
| simn_call t t' ss ss' nobt child child' idx n :
    sim V t t' -> term_key t = term_key t' -> sims V ss ss' -> optrel (simn V) child child' ->
    simn V (NCall t ss nobt child idx n) (NCall t' ss' nobt child' idx n)
| simn_op k ss ss' nobt more head head' tail tail' optail optail' :
    sims V ss ss' -> optrel (simn V) head head' -> optrel (simn V) tail tail' ->
    orel (Forall2 (simg V)) optail optail' ->
    simn V (NOp k ss nobt more head tail optail) (NOp k ss' nobt more head' tail' optail')
| simn_bip f ts ts' ss ss' nobt more :
    orel (Forall2 (sim V)) ts ts' -> sims V ss ss' ->
    simn V (NBip f ts ss nobt more) (NBip f ts' ss' nobt more).

Lemma osimgs_mono V V' o o' : vle V V' -> orel (Forall2 (simg V)) o o' -> orel (Forall2 (simg V')) o o'.
Proof.
  intros L. apply orel_mono. intros a b. apply Forall2_mono. apply simg_mono, L.
Qed.
Lemma osimts_mono V V' o o' : vle V V' -> orel (Forall2 (sim V)) o o' -> orel (Forall2 (sim V')) o o'.
Proof.
  intros L. apply orel_mono. intros a b. apply Forall2_mono. apply sim_mono, L.
Qed.
Lemma osims_mono V V' o o' : vle V V' -> orel (sims V) o o' -> orel (sims V') o o'.
Proof. intros L. apply orel_mono. intros a b. apply sims_mono, L. Qed.

Lemma simn_mono V V' : vle V V' -> forall nd nd', simn V nd nd' -> simn V' nd nd'.
Proof.
  intro L. fix IH 3. intros nd nd' H. destruct H as [t t' ss ss' nobt child child' idx n Ht Hk Hs Hc
    |k ss ss' nobt more head head' tail tail' optail optail' Hs Hh Htl Ho|f ts ts' ss ss' nobt more Ht Hs].
  - constructor; [eapply sim_mono; eauto|exact Hk|eapply sims_mono; eauto|].
    destruct Hc as [|a b Hab]; constructor. apply IH, Hab.
  - constructor; [eapply sims_mono; eauto| | |eapply osimgs_mono; eauto].
    + destruct Hh as [|a b Hab]; constructor. apply IH, Hab.
    + destruct Htl as [|a b Hab]; constructor. apply IH, Hab.
  - constructor; [eapply osimts_mono; eauto|eapply sims_mono; eauto].
Qed.

Lemma osimn_mono V V' o o' : vle V V' -> optrel (simn V) o o' -> optrel (simn V') o o'.
Proof. intros L H. destruct H; constructor. eapply simn_mono; eauto. Qed.

Lemma simn_set_nobt V nd nd' : simn V nd nd' -> simn V (set_nobt nd) (set_nobt nd').
Proof. destruct 1; cbn; constructor; assumption. Qed.
Lemma osimn_set_nobt V o o' : optrel (simn V) o o' -> optrel (simn V) (set_nobt_opt o) (set_nobt_opt o').
Proof. destruct 1; cbn; constructor. apply simn_set_nobt; assumption. Qed.
Lemma simn_if_nobt V (c : bool) nd nd' : simn V nd nd' ->
  simn V (if c then set_nobt nd else nd) (if c then set_nobt nd' else nd').
Proof. destruct c; [apply simn_set_nobt|auto]. Qed.
Lemma osimn_if_nobt V (c : bool) o o' : optrel (simn V) o o' ->
  optrel (simn V) (if c then set_nobt_opt o else o) (if c then set_nobt_opt o' else o').
Proof. destruct c; [apply osimn_set_nobt|auto]. Qed.

(* the results of one request are related over some V' above V that is again functional and
   bounded by the id counter of the new world; n bounds that counter from below *)
Definition step_rel (V : vrel) (n : N) (x x' : step_result) : Prop :=
  match x, x' with
  | (nd, sol, c, w), (nd', sol', c', w') =>
      exists V', vle V V' /\ vfun V' /\ vbound V' (next_id w) /\ simn V' nd nd' /\
                 orel (sims V') sol sol' /\ c = c' /\ wsim w w' /\ n <= next_id w
  end.

Lemma step_ret V n nd nd' sol sol' c w w' :
  vfun V -> vbound V (next_id w) -> simn V nd nd' -> orel (sims V) sol sol' -> wsim w w' ->
  n <= next_id w -> rrel (step_rel V n) (Ok (nd, sol, c, w)) (Ok (nd', sol', c, w')).
Proof.
  intros H1 H2 H3 H4 H5 H6. cbn. exists V. split; [apply vle_refl|]. split; [exact H1|]. split; [exact H2|].
  split; [exact H3|]. split; [exact H4|]. split; [reflexivity|]. split; [exact H5|exact H6].
Qed.

Lemma step_weaken V0 V n0 n r r' : vle V0 V -> n0 <= n ->
  rrel (step_rel V n) r r' -> rrel (step_rel V0 n0) r r'.
Proof.
  intros L Hn. apply rrel_mono. intros [[[nd sol] c] w] [[[nd' sol'] c'] w'] (V' & H1 & H2 & H3 & H4 & H5 & H6 & H7 & H8).
  exists V'. split; [eapply vle_trans; eauto|]. repeat (split; [assumption|]). lia.
Qed.

Lemma step_bind V n r r' (f f' : step_result -> res step_result) :
  rrel (step_rel V n) r r' ->
  (forall V1 nd nd' sol sol' c w w', vle V V1 -> vfun V1 -> vbound V1 (next_id w) -> simn V1 nd nd' ->
     orel (sims V1) sol sol' -> wsim w w' -> n <= next_id w ->
     rrel (step_rel V1 (next_id w)) (f (nd, sol, c, w)) (f' (nd', sol', c, w'))) ->
  rrel (step_rel V n) (bind r f) (bind r' f').
Proof.
  intros Hr Hf. eapply rrel_bind; [exact Hr|].
  intros [[[nd sol] c] w] [[[nd' sol'] c'] w'] (V1 & H1 & H2 & H3 & H4 & H5 & H6 & H7 & H8). subst c'.
  eapply step_weaken; [exact H1|exact H8|]. apply Hf; assumption.
Qed.

(* the same with the continuation given for the two kinds of result *)
Lemma step_bind_opt V n r r' (f f' : step_result -> res step_result) :
  rrel (step_rel V n) r r' ->
  (forall V1 nd nd' c w w', vle V V1 -> vfun V1 -> vbound V1 (next_id w) -> simn V1 nd nd' -> wsim w w' ->
     n <= next_id w -> rrel (step_rel V1 (next_id w)) (f (nd, None, c, w)) (f' (nd', None, c, w'))) ->
  (forall V1 nd nd' s s' c w w', vle V V1 -> vfun V1 -> vbound V1 (next_id w) -> simn V1 nd nd' ->
     sims V1 s s' -> wsim w w' -> n <= next_id w ->
     rrel (step_rel V1 (next_id w)) (f (nd, Some s, c, w)) (f' (nd', Some s', c, w'))) ->
  rrel (step_rel V n) (bind r f) (bind r' f').
Proof.
  intros Hr H0 H1. apply (step_bind _ _ _ _ _ _ Hr). intros V1 nd nd' sol sol' c w w' L F B N S W Le.
  destruct sol, sol'; cbn in S; try contradiction; auto.
Qed.

Section Engine.
  Variable kb kb' : kbase.
  Variable bf : nat.
  Hypothesis Hkb : kb_renamed kb kb'.
  Hypothesis Hok : okkb kb = true.

  Definition mk_rel (V : vrel) (w : world) (x x' : node * world) : Prop :=
    simn V (fst x) (fst x') /\ wsim (snd x) (snd x') /\ next_id (snd x) = next_id w.

  Lemma make_node_sim V : forall g g', simg V g g' -> forall ss ss' w w', sims V ss ss' -> wsim w w' ->
    rrel (mk_rel V w) (make_node kb g ss w) (make_node kb' g' ss' w').
  Proof.
    intros g g' H. induction H as [k gs gs' HF IH|f ts ts' Ht|t t' Ht Hk|] using simg_ind2;
      intros ss ss' w w' Hs Hw.
    - cbn [make_node].
      assert (forall tlo tlo', orel (Forall2 (simg V)) tlo tlo' ->
        match gs, gs' with
        | h :: _, h' :: _ =>
            rrel (mk_rel V w)
              (do r <- make_node kb h ss w; let '(hn, w'0) := r in Ok (NOp k ss false true (Some hn) None tlo, w'0))
              (do r <- make_node kb' h' ss' w'; let '(hn, w'0) := r in Ok (NOp k ss' false true (Some hn) None tlo', w'0))
        | [], [] => True
        | _, _ => False
        end) as Hstep.
      { intros tlo tlo' Ho. destruct IH as [|h h' tl tl' Hh _]; [exact I|].
        eapply rrel_bind; [apply Hh; assumption|].
        intros [hn w1] [hn' w1'] (R1 & R2 & R3). cbn [fst snd] in *. cbn.
        split; [|split; assumption]. constructor; try assumption; constructor. exact R1. }
      destruct HF as [|h h' tl tl' Hh Htl]; [destruct k; exact I|].
      (* and, or keep the other operands; time, not have none *)
      destruct k; [exact (Hstep (Some tl) (Some tl') Htl)..|exact (Hstep None None I)|exact (Hstep None None I)].
    - cbn. split; [|split; [exact Hw|reflexivity]]. constructor; assumption.
    - cbn [make_node]. rewrite <- Hk. destruct (term_key t) as [key| |] eqn:Ek; cbn [bind]; try exact I.
      pose proof (count_rules_sim kb kb' key w w' Hkb Hw) as (C1 & C2 & C3).
      destruct (count_rules kb key w) as [n w0], (count_rules kb' key w') as [n' w0'].
      cbn [fst snd] in *. subst n'. cbn. split; [|split; assumption].
      constructor; try assumption; [congruence|constructor].
    - exact I.
  Qed.

  Definition nx_ok (nx nx' : node -> world -> res step_result) : Prop :=
    forall V nd nd' w w', vfun V -> vbound V (next_id w) -> simn V nd nd' -> wsim w w' ->
      rrel (step_rel V (next_id w)) (nx nd w) (nx' nd' w').

  Definition al_ok (al al' : subst -> bool -> bool -> option node -> option node ->
                              option (list goal) -> bool -> world -> res step_result) : Prop :=
    forall V ss ss' nobt more head head' tail tail' optail optail' acc w w',
      vfun V -> vbound V (next_id w) -> sims V ss ss' -> optrel (simn V) head head' ->
      optrel (simn V) tail tail' -> orel (Forall2 (simg V)) optail optail' -> wsim w w' ->
      rrel (step_rel V (next_id w)) (al ss nobt more head tail optail acc w)
                                    (al' ss' nobt more head' tail' optail' acc w').

  Definition cl_ok (cl cl' : term -> subst -> bool -> option node -> N -> N -> world -> res step_result) : Prop :=
    forall V t t' ss ss' nobt child child' idx n w w',
      vfun V -> vbound V (next_id w) -> sim V t t' -> term_key t = term_key t' -> sims V ss ss' ->
      optrel (simn V) child child' -> wsim w w' ->
      rrel (step_rel V (next_id w)) (cl t ss nobt child idx n w) (cl' t' ss' nobt child' idx n w').

  (* everything known over V holds over a larger V1 *)
  Ltac lift V V1 L :=
    repeat match goal with
    | H : sims V _ _ |- _ => apply (sims_mono V V1 _ _ L) in H
    | H : sim V _ _ |- _ => apply (sim_mono V V1 L) in H
    | H : simn V _ _ |- _ => apply (simn_mono V V1 L) in H
    | H : optrel (simn V) _ _ |- _ => apply (osimn_mono V V1 _ _ L) in H
    | H : orel (Forall2 (simg V)) _ _ |- _ => apply (osimgs_mono V V1 _ _ L) in H
    | H : orel (Forall2 (sim V)) _ _ |- _ => apply (osimts_mono V V1 _ _ L) in H
    | H : orel (sims V) _ _ |- _ => apply (osims_mono V V1 _ _ L) in H
    | H : simg V _ _ |- _ => apply (simg_mono V V1 L) in H
    | H : Forall2 (simg V) _ _ |- _ => apply (Forall2_mono _ _ _ _ (simg_mono V V1 L)) in H
    end.

  Ltac solve_simn :=
    repeat first [ assumption | exact I | apply N.le_refl | apply simn_if_nobt | apply osimn_if_nobt
                 | apply wsim_print | apply wsim_set_id | constructor | (cbn [next_id w_print w_set_id]; lia) ].
  Ltac ret := apply step_ret; solve_simn.

  (* a node is made and asked at once: the two bodies and the clause loop do so *)
  Lemma made_run V n g g' ss ss' w w' nx nx' (k k' : step_result -> res step_result) :
    nx_ok nx nx' -> vfun V -> vbound V (next_id w) -> simg V g g' -> sims V ss ss' -> wsim w w' -> n <= next_id w ->
    (forall V1 nd nd' c w1 w1', vle V V1 -> vfun V1 -> vbound V1 (next_id w1) -> simn V1 nd nd' -> wsim w1 w1' ->
       n <= next_id w1 -> rrel (step_rel V1 (next_id w1)) (k (nd, None, c, w1)) (k' (nd', None, c, w1'))) ->
    (forall V1 nd nd' s s' c w1 w1', vle V V1 -> vfun V1 -> vbound V1 (next_id w1) -> simn V1 nd nd' ->
       sims V1 s s' -> wsim w1 w1' -> n <= next_id w1 ->
       rrel (step_rel V1 (next_id w1)) (k (nd, Some s, c, w1)) (k' (nd', Some s', c, w1'))) ->
    rrel (step_rel V n) (do y <- make_node kb g ss w; let '(t, w2) := y in do z <- nx t w2; k z)
                        (do y <- make_node kb' g' ss' w'; let '(t, w2) := y in do z <- nx' t w2; k' z).
  Proof.
    intros Hnx Hf Hb Hg Hs Hw Hle Hk0 Hk1.
    eapply rrel_bind; [apply (make_node_sim V g g' Hg ss ss' w w' Hs Hw)|].
    intros [t w2] [t' w2'] (M1 & M2 & M3). cbn [fst snd] in *. rewrite <- M3 in Hb, Hle.
    eapply step_bind_opt; [|exact Hk0|exact Hk1]. eapply step_weaken; [apply vle_refl|exact Hle|now apply Hnx].
  Qed.

  (* what the continuation of a request is given, over the larger V1 *)
  Ltac cont := intros; cbv beta iota; match goal with L : vle ?V ?V1 |- _ => lift V V1 L end.

  Lemma next_body_ok nx nx' al al' cl cl' : nx_ok nx nx' -> al_ok al al' -> cl_ok cl cl' ->
    nx_ok (next_body kb bf nx al cl) (next_body kb' bf nx' al' cl').
  Proof.
    intros Hnx Hal Hcl V nd nd' w w' Hf Hb Hn Hw.
    destruct Hn as [t t' ss ss' nobt child child' idx n Ht Hk Hs Hc
      |k ss ss' nobt more head head' tail tail' optail optail' Hs Hh Htl Ho|f ts ts' ss ss' nobt more Ht Hs];
      (destruct nobt; [ret|]).
    - destruct Hc as [|c0 c0' Hc0]; unfold next_body; cbv beta iota delta [node_nobt];
        [apply Hcl; try assumption; constructor|].
      eapply step_bind_opt; [apply Hnx; assumption|cont..]; [apply Hcl; try assumption; constructor|ret].
    - destruct k.
      + destruct Htl as [|t t' Ht]; unfold next_body; cbv beta iota delta [node_nobt];
          [apply Hal; try assumption; constructor|].
        eapply step_bind_opt; [apply Hnx; assumption|cont..];
          [apply Hal; try assumption; [apply osimn_if_nobt; assumption|constructor; assumption]|ret].
      + destruct Htl as [|t t' Ht]; [destruct Hh as [|h h' Hh]|]; unfold next_body; cbv beta iota delta [node_nobt];
          [ret| |eapply step_bind; [apply Hnx; assumption|cont]; ret].
        eapply step_bind_opt; [apply Hnx; assumption|cont..]; [|ret].
        destruct optail as [tl|], optail' as [tl'|]; cbn in Ho; try contradiction; [|ret].
        apply rrel_if; [now rewrite (Forall2_length' _ _ _ Ho)|ret|].
        apply rrel_if; [reflexivity|ret|].
        eapply made_run; try eassumption; [constructor; assumption|apply N.le_refl|cont..]; ret.
      + destruct more; [destruct Hh as [|h h' Hh]|]; unfold next_body; cbv beta iota delta [node_nobt negb];
          [exact I| |ret].
        eapply step_bind; [apply Hnx; assumption|cont]. ret.
      + destruct more; [destruct Hh as [|h h' Hh]|]; unfold next_body; cbv beta iota delta [node_nobt negb];
          [exact I| |ret].
        eapply step_bind_opt; [apply Hnx; assumption|cont..]; ret.
    - destruct more; unfold next_body; cbv beta iota delta [node_nobt negb]; [|ret].
      eapply rrel_bind; [apply (run_bip_sim V Hf); eassumption|].
      intros r r' [Hsol Hcut]. rewrite <- Hcut. ret.
  Qed.

  Lemma and_body_ok nx nx' al al' : nx_ok nx nx' -> al_ok al al' ->
    al_ok (and_body kb nx al) (and_body kb' nx' al').
  Proof.
    intros Hnx Hal V ss ss' nobt more head head' tail tail' optail optail' acc w w' Hf Hb Hs Hh Htl Ho Hw.
    destruct Hh as [|h h' Hh]; unfold and_body; cbv beta iota; [ret|].
    eapply step_bind_opt; [apply Hnx; assumption|cont..]; [ret|].
    destruct optail as [tl|], optail' as [tl'|]; cbn in Ho; try contradiction; [|ret].
    apply rrel_if; [now rewrite (Forall2_length' _ _ _ Ho)|ret|].
    eapply made_run; try eassumption; [constructor; assumption|apply N.le_refl|cont..];
      [apply Hal; try assumption; constructor; auto using simn_if_nobt|ret].
  Qed.

  Lemma call_body_ok nx nx' cl cl' : nx_ok nx nx' -> cl_ok cl cl' ->
    cl_ok (call_body kb bf nx cl) (call_body kb' bf nx' cl').
  Proof.
    intros Hnx Hcl V t t' ss ss' nobt child child' idx n w w' Hf Hb Ht Hk Hs Hc Hw.
    destruct nobt; unfold call_body; cbv beta iota; [ret|]. destruct (n <=? idx); [ret|].
    eapply (rrel_bind eq); [rewrite <- Hk; destruct (term_key t); cbn; auto|]. intros key _ <-.
    rbind; [rewrite <- (proj1 Hw); apply (get_rule_sim V); eassumption|].
    intros [r ctr] [r' ctr'] (E & Le & V1 & L1 & F1 & B1 & Hh & Hbd). cbn [fst snd] in *. subst ctr'.
    eapply rrel_bind_opt;
      [apply (unify_sim V1 F1); [exact Hh|eapply sim_mono; eauto|eapply sims_mono; eauto]| |intros s1 s1' Hu].
    - rewrite <- (proj1 Hw). apply (Hcl V t t' ss ss' false child child' (idx + 1) n
               (w_set_id (w_set_id w ctr) (next_id w)) (w_set_id (w_set_id w' ctr) (next_id w)));
        try assumption. apply wsim_set_id, wsim_set_id, Hw.
    - eapply step_weaken; [exact L1|exact Le|]. lift V V1 L1.
      apply rrel_if; [exact (simg_is_gnil _ _ _ Hbd)| |].
      + apply step_ret; try assumption; [constructor; assumption|apply wsim_set_id, Hw|apply N.le_refl].
      + eapply made_run; try eassumption; [apply wsim_set_id, Hw|apply N.le_refl|cont..];
          [apply Hcl; try assumption; constructor; assumption|ret].
  Qed.

  Theorem next_sim : forall f,
    nx_ok (next kb bf f) (next kb' bf f) /\ al_ok (and_loop kb bf f) (and_loop kb' bf f) /\
    cl_ok (call_loop kb bf f) (call_loop kb' bf f).
  Proof.
    induction f as [|f (IHn & IHa & IHc)].
    - split; [|split]; repeat intro; exact I.
    - split; [|split].
      + intros V nd nd' w w'. rewrite !next_S. apply next_body_ok; assumption.
      + intros V ss ss' nobt more head head' tail tail' optail optail' acc w w'. rewrite !and_loop_S.
        apply and_body_ok; assumption.
      + intros V t t' ss ss' nobt child child' idx n w w'. rewrite !call_loop_S.
        apply call_body_ok; assumption.
  Qed.
End Engine.

Definition obs_rel (o o' : qobs) : Prop :=
  match o, o' with
  | OAns s, OAns s' => orel names_ignored s s'
  | _, _ => False
  end.

Section Requests.
  Variable kb kb' : kbase.
  Hypothesis Hkb : kb_renamed kb kb'.
  Hypothesis Hok : okkb kb = true.

  Definition ops_rel (x x' : list qobs * node * world) : Prop :=
    Forall2 obs_rel (fst (fst x)) (fst (fst x')) /\ wsim (snd x) (snd x').

  (* one request: related observations, and nodes related over some V again *)
  Definition ask_rel (x x' : qobs * node * world) : Prop :=
    obs_rel (fst (fst x)) (fst (fst x')) /\
    exists V, vfun V /\ vbound V (next_id (snd x)) /\ simn V (snd (fst x)) (snd (fst x')) /\ wsim (snd x) (snd x').

  Lemma run_ask_sim fuel V nd nd' w w' :
    vfun V -> vbound V (next_id w) -> simn V nd nd' -> wsim w w' ->
    rrel ask_rel (run_op kb fuel QAsk nd w) (run_op kb' fuel QAsk nd' w').
  Proof.
    intros Hf Hb Hn Hw. unfold run_op.
    eapply rrel_bind; [apply (proj1 (next_sim kb kb' fuel Hkb Hok fuel) V); assumption|].
    intros [[[nd1 sol] c] w1] [[[nd1' sol'] c'] w1'] (V1 & L1 & F1 & B1 & N1 & S1 & C1 & W1 & Le).
    split; [|exists V1; auto]. cbn. eapply orel_mono; [|exact S1]. intros a b. apply sims_mono, vle_top.
  Qed.

  Lemma run_asks_sim fuel : forall n V nd nd' w w',
    vfun V -> vbound V (next_id w) -> simn V nd nd' -> wsim w w' ->
    rrel ops_rel (run_ops kb fuel (repeat QAsk n) nd w) (run_ops kb' fuel (repeat QAsk n) nd' w').
  Proof.
    induction n as [|n IH]; intros V nd nd' w w' Hf Hb Hn Hw; cbn [repeat run_ops].
    - cbn. split; [constructor|exact Hw].
    - eapply rrel_bind; [apply (run_ask_sim fuel V); assumption|].
      intros [[o nd1] w1] [[o' nd1'] w1'] (Ho & V1 & F1 & B1 & N1 & W1). cbn [fst snd] in *.
      eapply rrel_bind; [apply (IH V1); assumption|].
      intros [[os nd2] w2] [[os' nd2'] w2'] [R1 R2]. split; [constructor; assumption|exact R2].
  Qed.

  (* the whole path of the API: make_query, the query's node, n requests *)
  Theorem run_query_asks fuel terms n w : forallb okt terms = true ->
    rrel (fun x x' => Forall2 obs_rel (fst x) (fst x'))
         (run_query kb fuel terms (repeat QAsk n) w) (run_query kb' fuel terms (repeat QAsk n) w).
  Proof.
    intro Ht. unfold run_query, api_make_query.
    destruct (make_query terms) as [[g ctr]| |] eqn:Hm; cbn [bind]; try exact I.
    destruct (make_query_spec _ _ _ Hm) as (ts' & -> & _).
    set (w1 := mkWorld ctr false (stop_after w) (out w)).
    destruct (query_vrel _ (next_id w1) (make_query_ok _ _ _ Ht Hm)) as (V0 & Hf & Hb & Hs).
    (* the base node of a call goal is its node with the empty substitution set *)
    change (make_base_node kb (GCall (TComplex ts')) w1) with (make_node kb (GCall (TComplex ts')) [] w1).
    change (make_base_node kb' (GCall (TComplex ts')) w1) with (make_node kb' (GCall (TComplex ts')) [] w1).
    eapply rrel_bind;
      [apply (make_node_sim kb kb' Hkb V0); [constructor; [exact Hs|reflexivity]|apply sims_nil|apply wsim_refl]|].
    intros [nd w2] [nd' w2'] (M1 & M2 & M3). cbn [fst snd] in *.
    eapply rrel_bind; [apply (run_asks_sim fuel n V0); try assumption; rewrite M3; exact Hb|].
    intros [[os nd2] w3] [[os' nd2'] w3'] [R _]. exact R.
  Qed.
End Requests.

(* C11 (the clause-fetch half): renaming the variables of a stored clause by an injective map
   of NAMES changes nothing but the names in what a clause fetch returns - the fresh ids are
   the same, because ids are assigned by first occurrence. *)
From Suiron Require Import Model.Term Model.Subst Model.Show Model.Lists Model.Arith Model.Unify
  Model.Compare Model.Builtins Model.Rename Proofs.RenameProofs.
Open Scope N_scope.

Section Names.
  Variable phi : str -> str.
  Hypothesis phi_inj : forall a b, phi a = phi b -> a = b.

  Fixpoint mapn (t : term) : term :=
    match t with
    | TVar id n => TVar id (phi n)
    | TComplex ts => TComplex (map mapn ts)
    | TList a n c tv => TList (mapn a) (mapn n) c tv
    | TFun f args => TFun f (map mapn args)
    | _ => t
    end.

  Fixpoint mapn_goal (g : goal) : goal :=
    match g with
    | GOp k gs => GOp k (map mapn_goal gs)
    | GBip f (Some ts) => GBip f (Some (map mapn ts))
    | GBip f None => GBip f None
    | GCall t => GCall (mapn t)
    | GNil => GNil
    end.

  Definition mapn_rule (r : rule) : rule := mkRule (mapn (r_head r)) (mapn_goal (r_body r)).
  Definition mapn_vm (vm : varmap) : varmap := map (fun kv => (phi (fst kv), snd kv)) vm.
  Definition mapn_st (st : rstate) : rstate := (mapn_vm (fst st), snd st).

  Lemma str_eqb_phi a b : str_eqb (phi a) (phi b) = str_eqb a b.
  Proof.
    destruct (str_eqb a b) eqn:E.
    - apply str_eqb_eq in E. subst. apply str_eqb_refl.
    - destruct (str_eqb (phi a) (phi b)) eqn:E2; [|reflexivity].
      apply str_eqb_eq in E2. apply phi_inj in E2. subst. now rewrite str_eqb_refl in E.
  Qed.

  Lemma vm_get_phi vm n : vm_get (mapn_vm vm) (phi n) = vm_get vm n.
  Proof.
    induction vm as [|[k v] vm IH]; [reflexivity|]. simpl. rewrite str_eqb_phi. now rewrite IH.
  Qed.

  Definition commutes_term (t : term) : Prop :=
    forall st, rename_term (mapn t) (mapn_st st) =
               (mapn (fst (rename_term t st)), mapn_st (snd (rename_term t st))).

  Lemma rename_terms_commutes_if : forall l, Forall commutes_term l ->
    forall st, rename_terms (map mapn l) (mapn_st st) =
               (map mapn (fst (rename_terms l st)), mapn_st (snd (rename_terms l st))).
  Proof.
    induction 1 as [|x l Hx _ IH]; intro st; [reflexivity|].
    cbn [map rename_terms]. rewrite Hx.
    destruct (rename_term x st) as [x' st1]. cbn [fst snd]. rewrite IH.
    destruct (rename_terms l st1) as [r st2]. reflexivity.
  Qed.

  Theorem rename_term_commutes : forall t, commutes_term t.
  Proof.
    induction t as [| |a0|f0|z0|id0 nm0|ts Hts|a n c tv IHa IHn|nm args Hargs] using term_ind';
      intro st; try reflexivity.
    - destruct st as [vm ctr]. cbn [mapn rename_term mapn_st fst snd]. rewrite vm_get_phi.
      destruct (vm_get vm nm0); reflexivity.
    - cbn [mapn]. rewrite !rename_complex. rewrite (rename_terms_commutes_if _ Hts). reflexivity.
    - cbn [mapn rename_term]. rewrite IHa. destruct (rename_term a st) as [a' st1]. cbn [fst snd].
      rewrite IHn. destruct (rename_term n st1) as [n' st2]. reflexivity.
    - cbn [mapn]. rewrite !rename_fun. rewrite (rename_terms_commutes_if _ Hargs). reflexivity.
  Qed.

  Lemma rename_terms_commutes l st :
    rename_terms (map mapn l) (mapn_st st) =
    (map mapn (fst (rename_terms l st)), mapn_st (snd (rename_terms l st))).
  Proof. apply rename_terms_commutes_if. apply Forall_forall. intros t _. apply rename_term_commutes. Qed.

  Definition gres (r : res (goal * rstate)) : res (goal * rstate) :=
    match r with Ok (g, st) => Ok (mapn_goal g, mapn_st st) | Panic => Panic | OutOfFuel => OutOfFuel end.

  Definition gsres (r : res (list goal * rstate)) : res (list goal * rstate) :=
    match r with Ok (l, st) => Ok (map mapn_goal l, mapn_st st) | Panic => Panic | OutOfFuel => OutOfFuel end.

  Lemma rename_goals_commutes : forall l,
    Forall (fun g => forall st, rename_goal (mapn_goal g) (mapn_st st) = gres (rename_goal g st)) l ->
    forall st, rename_goals (map mapn_goal l) (mapn_st st) = gsres (rename_goals l st).
  Proof.
    induction 1 as [|x l Hx _ IH]; intro st; [reflexivity|].
    cbn [map rename_goals]. rewrite Hx.
    destruct (rename_goal x st) as [[x' st1]| |]; cbn [gres bind gsres]; try reflexivity.
    rewrite IH. destruct (rename_goals l st1) as [[r st2]| |]; reflexivity.
  Qed.

  Theorem rename_goal_commutes : forall g st, rename_goal (mapn_goal g) (mapn_st st) = gres (rename_goal g st).
  Proof.
    induction g as [k gs Hgs|f ts|t|] using goal_ind'; intro st.
    - cbn [mapn_goal]. rewrite !rename_goal_op. rewrite (rename_goals_commutes _ Hgs).
      destruct (rename_goals gs st) as [[gs' st']| |]; reflexivity.
    - destruct ts as [ts|]; [|reflexivity]. cbn [mapn_goal rename_goal]. rewrite rename_terms_commutes.
      destruct (rename_terms ts st) as [ts' st']. reflexivity.
    - destruct t; try reflexivity. cbn [mapn_goal rename_goal].
      change (TComplex (map mapn ts)) with (mapn (TComplex ts)). rewrite rename_term_commutes.
      destruct (rename_term (TComplex ts) st) as [u' st']. reflexivity.
    - reflexivity.
  Qed.

  Definition rres (r : res (rule * rstate)) : res (rule * rstate) :=
    match r with Ok (x, st) => Ok (mapn_rule x, mapn_st st) | Panic => Panic | OutOfFuel => OutOfFuel end.

  Theorem rename_rule_commutes r st : rename_rule (mapn_rule r) (mapn_st st) = rres (rename_rule r st).
  Proof.
    unfold rename_rule. cbn [mapn_rule r_head r_body]. rewrite rename_term_commutes.
    destruct (rename_term (r_head r) st) as [h st1]. cbn [fst snd].
    destruct (r_body r) as [k gs|f [ts|]|c|] eqn:Eb; try reflexivity; cbn [mapn_goal]; cbv iota.
    - change (GOp k (map mapn_goal gs)) with (mapn_goal (GOp k gs)). rewrite rename_goal_commutes.
      destruct (rename_goal (GOp k gs) st1) as [[g st2]| |]; reflexivity.
    - change (GBip f (Some (map mapn ts))) with (mapn_goal (GBip f (Some ts))). rewrite rename_goal_commutes.
      destruct (rename_goal (GBip f (Some ts)) st1) as [[g st2]| |]; reflexivity.
    - rewrite rename_term_commutes. destruct (rename_term c st1) as [c' st2]. reflexivity.
  Qed.
End Names.

(* knowledge bases whose clauses differ by a consistent (per clause injective) renaming *)
Definition rule_renamed (r r' : rule) : Prop :=
  exists phi, (forall a b, phi a = phi b -> a = b) /\ r' = mapn_rule phi r.

Definition kb_renamed (kb kb' : kbase) : Prop :=
  Forall2 (fun e e' => fst e = fst e' /\ Forall2 rule_renamed (snd e) (snd e')) kb kb'.

Lemma kb_get_renamed kb kb' key : kb_renamed kb kb' ->
  match kb_get kb key, kb_get kb' key with
  | Some rs, Some rs' => Forall2 rule_renamed rs rs'
  | None, None => True
  | _, _ => False
  end.
Proof.
  induction 1 as [|[k rs] [k' rs'] kb kb' [Hk Hr] _ IH]; [exact I|].
  simpl in *. subst k'. destruct (str_eqb k key); [exact Hr|exact IH].
Qed.

(* Every clause fetch from the renamed knowledge base returns the renamed clause with THE SAME
   fresh ids and the same counter. *)
Theorem get_rule_renamed kb kb' pred i ctr :
  kb_renamed kb kb' ->
  match get_rule kb pred i ctr, get_rule kb' pred i ctr with
  | Ok (r, c), Ok (r', c') => c = c' /\ rule_renamed r r'
  | Panic, Panic => True
  | OutOfFuel, OutOfFuel => True
  | _, _ => False
  end.
Proof.
  intro H. pose proof (kb_get_renamed kb kb' pred H) as Hg. unfold get_rule.
  destruct (kb_get kb pred) as [rs|], (kb_get kb' pred) as [rs'|]; try contradiction; [|exact I].
  generalize (N.to_nat i). induction Hg as [|r r' rs rs' Hr _ IH]; intros [|n]; try exact I; [|apply IH].
  cbn [nth_error]. destruct Hr as (phi & Hinj & ->).
  (* the renaming state of a fetch is empty, so its image under the renaming is itself *)
  rewrite (rename_rule_commutes phi Hinj r ([], ctr) : rename_rule (mapn_rule phi r) ([], ctr) = _).
  destruct (rename_rule r ([], ctr)) as [[r0 [vm c0]]| |]; cbn [rres bind]; try exact I.
  split; [reflexivity|]. exists phi. auto.
Qed.

(* C11, names are ignored: the list traversals (Model/Lists.v), arithmetic (Model/Arith.v) and
   unification with the evaluation of function terms (Model/Unify.v) respect "equal up to names".
   A `join(..)` with a variable among its arguments is outside the relation itself (`nojoin`, see Proofs/NamesRel.v). *)
From Suiron Require Import Model.Term Model.Subst Model.Show Model.Lists Model.Arith Model.Unify
  Proofs.NamesRel.
Open Scope N_scope.

Ltac rbind := eapply rrel_bind.

(* the traversals first look through a variable; on other terms get_ground_term is the identity *)
Lemma ground_or_self fuel t s :
  match t with TVar _ _ => get_ground_term fuel t s | _ => Ok (Some t) end = get_ground_term fuel t s.
Proof. destruct t, fuel; reflexivity. Qed.

Section Prims.
  Variable V : vrel.
  Hypothesis Vfun : vfun V.
  Notation sim := (sim V).
  Notation sims := (sims V).

  Lemma node_count_sim l l' : sim l l' -> node_count l = node_count l'.
  Proof. destruct 1; reflexivity. Qed.

  Lemma link_front_sim x x' tl l l' : sim x x' -> sim l l' ->
    rrel sim (link_front x tl l) (link_front x' tl l').
  Proof.
    intros Hx Hl. destruct Hl; cbn; try exact I. constructor; [exact Hx|]. now constructor.
  Qed.

  Lemma make_list_of_terms_sim l l' : Forall2 sim l l' ->
    sim (make_list_of_terms l) (make_list_of_terms l').
  Proof.
    unfold make_list_of_terms. induction 1 as [|x y l l' Hxy Hl IH]; cbn [fold_right].
    - apply sim_empty_list.
    - rewrite (node_count_sim _ _ IH). constructor; eassumption.
  Qed.

  Lemma walk_sim : forall fuel stop h h' l l' s s', sim h h' -> sim l l' -> sims s s' ->
    rrel (Forall2 sim) (walk fuel stop h l s) (walk fuel stop h' l' s').
  Proof.
    induction fuel as [|f IH]; intros stop h h' l l' s s' Hh Hl Hs; cbn [walk];
      (apply rrel_if; [exact (sim_is_nil _ _ _ Hh)|cbn; constructor|]); [exact I|].
    assert (forall a a' n n', sim a a' -> sim n n' ->
      rrel (Forall2 sim) (do r <- walk f stop a n s; Ok (h :: r)) (do r <- walk f stop a' n' s'; Ok (h' :: r))) as Hstep.
    { intros a a' n n' Ha Hn. rbind; [apply IH; eassumption|]. intros r r' Hr. cbn. now constructor. }
    destruct Hl as [| |a|x|z|id a b Hv|ts ts' HF|a a' n n' c tv Ha Hn|name args args' Hj HF];
      try (cbn; constructor; [eassumption|constructor]).
    apply rrel_if; [now rewrite (sim_is_anon _ _ _ Ha)| |apply Hstep; eassumption].
    eapply rrel_bind_opt; [apply get_list_sim; eassumption| |].
    - destruct stop; [cbn; constructor; [eassumption|constructor]|apply Hstep; eassumption].
    - intros g g' Hg. destruct Hg; apply Hstep; eassumption.
  Qed.

  Lemma count_terms_sim fuel t t' s s' : sim t t' -> sims s s' ->
    rrel eq (count_terms fuel t s) (count_terms fuel t' s').
  Proof.
    intros Ht Hs. unfold count_terms. rewrite !ground_or_self.
    eapply rrel_bind_opt; [apply get_ground_term_sim; eassumption|reflexivity|].
    intros u u' Hu. destruct Hu; try reflexivity.
    rbind; [apply walk_sim; eassumption|]. intros r r' Hr. cbn. now rewrite (Forall2_length' _ _ _ Hr).
  Qed.

  Lemma get_terms_sim fuel t t' s s' : sim t t' -> sims s s' ->
    rrel (Forall2 sim) (get_terms fuel t s) (get_terms fuel t' s').
  Proof.
    intros Ht Hs. unfold get_terms.
    eapply rrel_bind_opt; [apply get_ground_term_sim; eassumption| |].
    - cbn. constructor; [eassumption|constructor].
    - intros g g' Hg. destruct Hg; try (cbn; constructor; [now constructor|constructor]).
      apply walk_sim; eassumption.
  Qed.

  Lemma get_numbers_sim fuel : forall l l' s s', Forall2 sim l l' -> sims s s' ->
    rrel eq (get_numbers fuel l s) (get_numbers fuel l' s').
  Proof.
    intros l l' s s' Hl Hs. induction Hl as [|x y l l' Hxy Hl IH]; cbn [get_numbers]; [reflexivity|].
    eapply rrel_bind_opt; [apply get_ground_term_sim; eassumption|exact I|].
    intros g g' Hg. destruct Hg; try exact I; (rbind; [exact IH|]); intros r r' <-; destruct r; reflexivity.
  Qed.

  (* the value of an arithmetic function is a number: related means equal *)
  Lemma evaluate_sim fuel op l l' s s' : Forall2 sim l l' -> sims s s' ->
    rrel sim (evaluate fuel op l s) (evaluate fuel op l' s').
  Proof.
    intros Hl Hs. unfold evaluate. rbind; [apply get_numbers_sim; eassumption|].
    intros [ns hf] r' <-. cbv beta iota zeta.
    assert (forall f, rrel sim (Ok (TFloat f)) (Ok (TFloat f))) as Hfl by constructor.
    assert (forall x, rrel sim (do v <- x; Ok (TInt v)) (do v <- x; Ok (TInt v))) as Hin
      by (intros [v| |]; try exact I; constructor).
    destruct hf, op; auto; try destruct (get_floats ns); try destruct (get_integers ns); auto; exact I.
  Qed.

  (* join: only for arguments without variables, where related means equal *)
  Lemma single_novars x r : novars x = true -> Ok [x] = Ok r -> forallb novars r = true.
  Proof. intros Hx H. injection H as <-. cbn. now rewrite Hx. Qed.

  Lemma walk_novars : forall fuel stop h l s r, novars h = true -> novars l = true ->
    walk fuel stop h l s = Ok r -> forallb novars r = true.
  Proof.
    induction fuel as [|f IH]; intros stop h l s r Hh Hl; cbn [walk]; destruct (is_nil h);
      try (intro H; injection H as <-; reflexivity); try discriminate.
    pose proof (fun r => single_novars h r Hh) as Hlast.
    assert (forall a n, novars a = true -> novars n = true ->
              (do r0 <- walk f stop a n s; Ok (h :: r0)) = Ok r -> forallb novars r = true) as Hstep.
    { intros a n Ha Hn H. destruct (walk f stop a n s) as [r0| |] eqn:E; cbn in H; try discriminate.
      inversion H; subst. cbn. rewrite Hh. eapply IH; [exact Ha|exact Hn|exact E]. }
    destruct l; try apply Hlast.
    cbn [novars] in Hl. apply andb_true_iff in Hl as [Hl1 Hl2].
    destruct (tv && negb (is_anon l1)); [|apply Hstep; assumption].
    (* the element before the tail marker has no variable: get_list does not consult s *)
    destruct l1; cbn [get_list bind novars] in *; try discriminate;
      try (destruct stop; [apply Hlast|apply Hstep; assumption]).
    apply andb_true_iff in Hl1 as [A1 A2]. apply Hstep; assumption.
  Qed.

  Lemma get_terms_novars fuel t s r : novars t = true -> get_terms fuel t s = Ok r ->
    forallb novars r = true.
  Proof.
    intros Ht. unfold get_terms. rewrite <- ground_or_self.
    destruct t; try discriminate Ht; cbn [bind]; try (apply single_novars, Ht).
    cbn [novars] in Ht. apply andb_true_iff in Ht as [H1 H2]. apply walk_novars; assumption.
  Qed.

  Lemma get_all_terms_novars fuel : forall l s r, forallb novars l = true ->
    get_all_terms fuel l s = Ok r -> forallb novars r = true.
  Proof.
    induction l as [|x l IH]; intros s r Hl; cbn [get_all_terms]; [intro H; inversion H; reflexivity|].
    cbn in Hl. apply andb_true_iff in Hl as [H1 H2].
    destruct (get_terms fuel x s) as [a| |] eqn:Ea; cbn [bind]; try discriminate.
    destruct (get_all_terms fuel l s) as [b| |] eqn:Eb; cbn [bind]; try discriminate.
    intro H; inversion H; subst. rewrite forallb_app, (get_terms_novars _ _ _ _ H1 Ea). eapply IH; eauto.
  Qed.

  Lemma get_all_terms_sim fuel : forall l l' s s', Forall2 sim l l' -> sims s s' ->
    rrel (Forall2 sim) (get_all_terms fuel l s) (get_all_terms fuel l' s').
  Proof.
    intros l l' s s' Hl Hs. induction Hl as [|x y l l' Hxy Hl IH]; cbn [get_all_terms]; [cbn; constructor|].
    rbind; [apply get_terms_sim; eassumption|]. intros a a' Ha.
    rbind; [exact IH|]. intros b b' Hb. cbn. apply Forall2_app; assumption.
  Qed.

  Lemma evaluate_join_sim fuel l l' s s' : forallb novars l = true -> Forall2 sim l l' -> sims s s' ->
    rrel sim (evaluate_join fuel l s) (evaluate_join fuel l' s').
  Proof.
    intros Hn Hl Hs. unfold evaluate_join.
    pose proof (get_all_terms_sim fuel _ _ _ _ Hl Hs) as H.
    destruct (get_all_terms fuel l s) as [a| |] eqn:Ea, (get_all_terms fuel l' s') as [a'| |];
      cbn in H; try contradiction; auto.
    cbn. rewrite (simts_novars_eq V _ _ H (get_all_terms_novars _ _ _ _ Hn Ea)). constructor.
  Qed.

  Lemma eval_function_sim fuel name l l' s s' : nojoin name l -> Forall2 sim l l' -> sims s s' ->
    rrel (orel sim) (eval_function fuel name l s) (eval_function fuel name l' s').
  Proof.
    intros Hj Hl Hs. unfold eval_function.
    assert (forall x x', rrel sim x x' -> rrel (orel sim) (do v <- x; Ok (Some v)) (do v <- x'; Ok (Some v))) as Hsome
      by (intros x x' H; rbind; [exact H|]; intros v v' Hv; exact Hv).
    destruct (str_eqb name fname_join) eqn:Ej.
    { destruct Hj as [Hj|Hj]; [congruence|]. apply Hsome, evaluate_join_sim; assumption. }
    repeat (match goal with |- context [if ?c then _ else _] => destruct c end;
            [apply Hsome, evaluate_sim; eassumption|]).
    exact I.
  Qed.

  Lemma chain_reaches_sim : forall fuel id o o' s s', sim o o' -> sims s s' ->
    rrel eq (chain_reaches fuel id o s) (chain_reaches fuel id o' s').
  Proof.
    induction fuel as [|f IH]; intros id o o' s s' Ho Hs; destruct Ho; cbn [chain_reaches]; try reflexivity;
      (destruct (id0 =? id); [reflexivity|]);
      apply (orel_case _ _ _ (ss_get_sim _ _ _ id0 Hs)); cbn; auto.
  Qed.

  Definition urel := rrel (orel sims).

  Lemma urel_if (c : bool) s s' : sims s s' -> urel (Ok (if c then Some s else None)) (Ok (if c then Some s' else None)).
  Proof. intro H. destruct c; [exact H|exact I]. Qed.

  (* the two tests every unification starts with *)
  Lemma urel_guard (b b' c c' : bool) s s' x y : b = b' -> c = c' -> sims s s' -> urel x y ->
    urel (if b then Ok (Some s) else if c then Ok (Some s) else x)
         (if b' then Ok (Some s') else if c' then Ok (Some s') else y).
  Proof. intros <- <- Hs Hxy. destruct b; [exact Hs|]. destruct c; [exact Hs|exact Hxy]. Qed.

  Section Body.
    Variable rec rec' : term -> term -> subst -> res (option subst).
    Hypothesis Hrec : forall t t' u u' s s', sim t t' -> sim u u' -> sims s s' ->
      urel (rec t u s) (rec' t' u' s').

    Lemma unify_args_sim : forall ls ls', Forall2 sim ls ls' -> forall rs rs', Forall2 sim rs rs' ->
      forall n n' s2 s2', sims n n' -> sims s2 s2' ->
      urel (unify_args rec ls rs n s2) (unify_args rec' ls' rs' n' s2').
    Proof.
      induction 1 as [|l l' ls ls' Hl Hls IH]; intros rs rs' Hrs n n' s2 s2' Hn H2.
      - cbn. exact H2.
      - destruct Hrs as [|r r' rs rs' Hr Hrs]; [cbn; exact H2|].
        cbn [unify_args].
        apply rrel_if; [now rewrite (sim_is_anon _ _ _ Hl), (sim_is_anon _ _ _ Hr)|apply IH; eassumption|].
        eapply rrel_bind_opt; [apply Hrec; eassumption|exact I|].
        intros u u' Hu. apply IH; eassumption.
    Qed.

    Lemma unify_lists_sim : forall a a', sim a a' -> forall b b', sim b b' -> forall s s', sims s s' ->
      urel (unify_lists rec a b s) (unify_lists rec' a' b' s').
    Proof.
      intros a a' Ha. induction Ha as [| |x|x|z|id x y Hv|ts ts' HF _|h h' n n' c tv Hh _ Hn IHn|name args args' Hj HF _]
        using sim_ind2; intros b b' Hb s s' Hs;
        try (destruct Hb; exact I).
      cbn [unify_lists]. cbn [is_nil orb]. rewrite <- (sim_is_nil _ _ _ Hb).
      destruct (is_nil b) eqn:Eb; [exact I|]. pose proof Hb as Hb0.
      destruct Hb as [| |x|x|z|id x y Hv|ts ts' HF|oh oh' on on' oc otv Hoh Hon|name args args' Hj HF];
        try exact I.
      rewrite <- (sim_is_anon _ _ _ Hoh), <- (sim_is_anon _ _ _ Hh),
        <- (sim_is_nil _ _ _ Hoh), <- (sim_is_nil _ _ _ Hh).
      destruct (tv && otv).
      { destruct (is_anon oh); [exact Hs|]. destruct (is_anon h); [exact Hs|]. apply Hrec; eassumption. }
      destruct tv. { apply Hrec; eassumption. }
      destruct otv. { apply Hrec; [eassumption|now constructor|eassumption]. }
      destruct (is_nil h && is_nil oh); [exact Hs|].
      eapply rrel_bind_opt; [apply Hrec; eassumption|exact I|].
      intros u u' Hu. apply IHn; eassumption.
    Qed.

    Lemma unify_body_sim f t t' u u' s s' : sim t t' -> sim u u' -> sims s s' ->
      urel (unify_body rec f t u s) (unify_body rec' f t' u' s').
    Proof.
      intros Ht Hu Hs.
      apply urel_guard; [apply (term_eqb_sim V Vfun); assumption|exact (sim_is_anon _ _ _ Hu)|exact Hs|].
      (* the arms that hand over to the other side's arm *)
      assert (urel (rec u t s) (rec' u' t' s')) as Hswap by (apply Hrec; assumption).
      pose proof Ht as Ht0. pose proof Hu as Hu0.
      destruct Ht as [| |x|x|z|id x y Hv|ts ts' HF|h h' n n' c tv Hh Hn|name args args' Hj HF].
      (* the three kinds of constant *)
      3-5: destruct Hu; try exact I; try exact Hswap; apply urel_if, Hs.
      - exact I.
      - exact Hs.
      - destruct (id =? 0); [exact I|].
        (* the eight arms for an `other` that is not a function term are one term: proved once *)
        assert (forall o o', sim o o' ->
          urel match ss_get s id with
               | Some u0 => rec u0 o s
               | None => do al <- chain_reaches f id o s; Ok (Some (if al then s else ss_set s id o))
               end
               match ss_get s' id with
               | Some u0 => rec' u0 o' s'
               | None => do al <- chain_reaches f id o' s'; Ok (Some (if al then s' else ss_set s' id o'))
               end) as Hvar.
        { intros o o' Ho. apply (orel_case _ _ _ (ss_get_sim _ _ _ id Hs)); [|intros g g' Hg; apply Hrec; assumption].
          rbind; [apply chain_reaches_sim; assumption|]. intros al al' <-. cbn.
          destruct al; [exact Hs|apply ss_set_sim; assumption]. }
        destruct Hu; try exact Hswap; exact (Hvar _ _ Hu0).
      - destruct Hu as [| | | | | |us us' HU| |]; try exact I; try exact Hswap.
        rewrite <- (Forall2_length' _ _ _ HF), <- (Forall2_length' _ _ _ HU).
        destruct (negb (length ts =? length us)%nat); [exact I|].
        apply unify_args_sim; try eassumption; constructor.
      - destruct Hu; try exact I; try exact Hswap. apply unify_lists_sim; assumption.
      - eapply rrel_bind_opt; [apply eval_function_sim; eassumption|exact I|].
        intros v v' Hv. apply Hrec; eassumption.
    Qed.
  End Body.

  Theorem unify_sim : forall fuel t t' u u' s s', sim t t' -> sim u u' -> sims s s' ->
    urel (unify fuel t u s) (unify fuel t' u' s').
  Proof.
    induction fuel as [|f IH]; intros t t' u u' s s' Ht Hu Hs; [exact I|].
    cbn [unify]. apply unify_body_sim; eassumption.
  Qed.
End Prims.

(* C11, names are ignored: the comparison predicates (Model/Compare.v) and every built-in predicate
   (Model/Builtins.v) respect "equal up to names": related arguments and substitution sets give
   related solutions, the same cut flag and the same outcome class (value / panic / out of fuel).
   What print and print_list WRITE is not related: they show the names of unbound variables. *)
From Suiron Require Import Model.Term Model.Subst Model.Show Model.Lists Model.Arith Model.Unify
  Model.Compare Model.Builtins Proofs.NamesRel Proofs.NamesUnify.
Open Scope N_scope.

Definition anyrel {A B} : A -> B -> Prop := fun _ _ => True.

Lemma Forall2_removelast {A B} (R : A -> B -> Prop) l l' :
  Forall2 R l l' -> Forall2 R (removelast l) (removelast l').
Proof.
  induction 1 as [|x y l l' Hxy Hl IH]; cbn [removelast]; [constructor|].
  destruct Hl; [constructor|]. constructor; [exact Hxy|exact IH].
Qed.

Lemma Forall2_last {A B} (R : A -> B -> Prop) l l' d d' :
  Forall2 R l l' -> R d d' -> R (last l d) (last l' d').
Proof.
  induction 1 as [|x y l l' Hxy Hl IH]; intro Hd; cbn [last]; [exact Hd|].
  destruct Hl; [exact Hxy|]. apply IH, Hd.
Qed.

Lemma split_pct_s_nonempty : forall s acc, split_pct_s acc s <> [].
Proof.
  induction s as [|c r IH]; intro acc; [discriminate|].
  cbn [split_pct_s].
  destruct c as [|p]; [apply IH|].
  do 6 (destruct p as [p|p|]; try apply IH).
  destruct r as [|d r']; [apply IH|].
  destruct d as [|q]; [apply IH|].
  do 7 (destruct q as [q|q|]; try apply IH).
  discriminate.
Qed.

Section Bips.
  Variable V : vrel.
  Hypothesis Vfun : vfun V.
  Notation sim := (sim V).
  Notation sims := (sims V).
  Notation urel := (urel V).

  Definition simo (ts ts' : option (list term)) : Prop := orel (Forall2 sim) ts ts'.

  Lemma get_constant_is_constant fuel t s c : get_constant fuel t s = Ok (Some c) -> is_constant c = true.
  Proof.
    destruct t; cbn [get_constant]; intro H; try discriminate; try (inversion H; reflexivity).
    destruct (get_ground_term fuel (TVar id name) s) as [[g|]| |]; cbn in H; try discriminate.
    destruct (is_constant g) eqn:E; inversion H; subst; exact E.
  Qed.

  Lemma get_constant_eq fuel t t' s s' : sim t t' -> sims s s' ->
    rrel eq (get_constant fuel t s) (get_constant fuel t' s').
  Proof.
    intros Ht Hs. pose proof (get_constant_sim V fuel _ _ _ _ Ht Hs) as H.
    destruct (get_constant fuel t s) as [[c|]| |] eqn:E, (get_constant fuel t' s') as [[c'|]| |];
      cbn in *; try contradiction; auto.
    f_equal. symmetry. eapply sim_constant_eq; [exact H|]. eapply get_constant_is_constant, E.
  Qed.

  Lemma get_two_constants_eq fuel l l' s s' : Forall2 sim l l' -> sims s s' ->
    rrel eq (get_two_constants fuel l s) (get_two_constants fuel l' s').
  Proof.
    intros Hl Hs. destruct Hl as [|x x' l l' Hx Hl]; cbn [get_two_constants]; [exact I|].
    rbind; [apply get_constant_eq; eassumption|]. intros a b <-. destruct a as [a|]; [|reflexivity].
    destruct Hl as [|y y' l l' Hy Hl]; [exact I|].
    rbind; [apply get_constant_eq; eassumption|]. intros c d <-. reflexivity.
  Qed.

  Lemma bip_compare_sim fuel op ts ts' s s' : simo ts ts' -> sims s s' ->
    urel (bip_compare fuel op ts s) (bip_compare fuel op ts' s').
  Proof.
    intros Ht Hs. apply (orel_case _ _ _ Ht); [exact I|]. intros l l' Hl.
    cbn [bip_compare]. rbind; [apply get_two_constants_eq; eassumption|].
    intros [[a b]|] ? <-; [apply urel_if, Hs|exact I].
  Qed.

  Lemma replace_variables_sim : forall fuel t t' s s', sim t t' -> sims s s' ->
    rrel sim (replace_variables fuel t s) (replace_variables fuel t' s').
  Proof.
    induction fuel as [|f IH]; intros t t' s s' Ht Hs; [exact I|].
    destruct Ht as [| |x|x|z|id x y Hv|ts ts' HF|h h' n n' c tv Hh Hn|name args args' Hj HF];
      cbn [replace_variables]; try (cbn; now constructor).
    - apply (orel_case _ _ _ (ss_get_sim _ _ _ id Hs)); [cbn; now constructor|].
      intros u u' Hu. apply IH; eassumption.
    - rbind; [|intros l l' Hl; cbn; constructor; exact Hl].
      induction HF as [|a b ts ts' Hab HF IHF]; [cbn; constructor|].
      rbind; [apply IH; eassumption|]. intros a1 b1 H1.
      rbind; [exact IHF|]. intros r r' Hr. cbn. now constructor.
    - rbind; [apply IH; eassumption|]. intros a1 b1 H1.
      rbind; [apply IH; eassumption|]. intros a2 b2 H2. cbn. now constructor.
  Qed.

  Lemma filter_terms_sim fuel pat pat' incl : forall l l' s s', sim pat pat' -> Forall2 sim l l' ->
    sims s s' -> rrel (Forall2 sim) (filter_terms fuel pat incl l s) (filter_terms fuel pat' incl l' s').
  Proof.
    intros l l' s s' Hp Hl Hs. induction Hl as [|x y l l' Hxy Hl IH]; cbn [filter_terms]; [cbn; constructor|].
    rbind; [apply (unify_sim V Vfun); eassumption|]. intros u u' Hu.
    rbind; [exact IH|]. intros r r' Hr. cbn.
    destruct u, u'; cbn in Hu; try contradiction; destruct (Bool.eqb _ incl); try exact Hr; now constructor.
  Qed.

  Lemma filter_sim fuel pat pat' l l' s s' incl : sim pat pat' -> sim l l' -> sims s s' ->
    rrel (orel sim) (filter fuel pat l s incl) (filter fuel pat' l' s' incl).
  Proof.
    intros Hp Hl Hs. unfold filter.
    eapply rrel_bind_opt; [apply (get_ground_term_sim V); eassumption|exact I|].
    intros g g' Hg. destruct Hg; try exact I.
    rbind; [apply walk_sim; eassumption|]. intros e e' He.
    rbind; [apply filter_terms_sim; eassumption|]. intros k k' Hk. cbn.
    apply make_list_of_terms_sim, Hk.
  Qed.

  Lemma bip_filter_sim fuel incl ts ts' s s' : simo ts ts' -> sims s s' ->
    urel (bip_filter fuel incl ts s) (bip_filter fuel incl ts' s').
  Proof.
    intros Ht Hs. apply (orel_case _ _ _ Ht); [exact I|]. clear Ht. intros l l' Ht.
    do 3 (destruct Ht as [|? ? ? ? ? Ht]; [exact I|]). destruct Ht; [|exact I]. cbn [bip_filter].
    eapply rrel_bind_opt; [apply filter_sim; eassumption|exact I|].
    intros g g' Hg. apply (unify_sim V Vfun); eassumption.
  Qed.

  Lemma resolve_var_sim fuel t t' s s' : sim t t' -> sims s s' ->
    rrel sim
      (match t with
       | TVar _ _ => do g <- get_ground_term fuel t s; Ok (match g with Some n => n | None => t end)
       | _ => Ok t
       end)
      (match t' with
       | TVar _ _ => do g <- get_ground_term fuel t' s'; Ok (match g with Some n => n | None => t' end)
       | _ => Ok t'
       end).
  Proof.
    intros Ht Hs. destruct Ht; try (cbn; now constructor).
    eapply rrel_bind_opt; [apply (get_ground_term_sim V); [now constructor|eassumption]|cbn; now constructor|].
    intros g g' Hg. exact Hg.
  Qed.

  Lemma append_collect_sim fuel : forall l l' s s', Forall2 sim l l' -> sims s s' ->
    rrel (Forall2 sim) (append_collect fuel l s) (append_collect fuel l' s').
  Proof.
    intros l l' s s' Hl Hs. induction Hl as [|x y l l' Hxy Hl IH]; cbn [append_collect]; [cbn; constructor|].
    rbind; [apply resolve_var_sim; eassumption|]. intros t t' Ht.
    rbind; [|intros h h' Hh; rbind; [exact IH|]; intros m m' Hm; cbn; apply Forall2_app; eassumption].
    destruct Ht; try (cbn; constructor; [now constructor|constructor]).
    - cbn. constructor.
    - apply (get_terms_sim V); [now constructor|eassumption].
  Qed.

  Lemma bip_append_sim fuel ts ts' s s' : simo ts ts' -> sims s s' ->
    urel (bip_append fuel ts s) (bip_append fuel ts' s').
  Proof.
    intros Ht Hs. apply (orel_case _ _ _ Ht); [exact I|]. clear ts ts' Ht. intros ts ts' Ht.
    cbn [bip_append]. rewrite <- (Forall2_length' _ _ _ Ht). destruct (length ts <? 2)%nat; [exact I|].
    rbind; [apply append_collect_sim; [apply Forall2_removelast; exact Ht|eassumption]|].
    intros o o' Ho. apply (unify_sim V Vfun); try eassumption.
    - apply Forall2_last; [exact Ht|constructor].
    - apply make_list_of_terms_sim; eassumption.
  Qed.

  Lemma bip_count_sim fuel ts ts' s s' : simo ts ts' -> sims s s' ->
    urel (bip_count fuel ts s) (bip_count fuel ts' s').
  Proof.
    intros Ht Hs. apply (orel_case _ _ _ Ht); [exact I|]. clear Ht. intros l l' Ht.
    do 2 (destruct Ht as [|? ? ? ? ? Ht]; [exact I|]). destruct Ht; [|exact I]. cbn [bip_count].
    rbind; [apply (count_terms_sim V); eassumption|]. intros c c' <-.
    apply (unify_sim V Vfun); try eassumption. constructor.
  Qed.

  Lemma atoms_match_sim f f' ms : sim f f' -> atoms_match f ms = atoms_match f' ms.
  Proof. destruct 1; reflexivity. Qed.

  Lemma resolve_each_sim fuel : forall l l' s s', Forall2 sim l l' -> sims s s' ->
    rrel (Forall2 sim) (resolve_each fuel l s) (resolve_each fuel l' s').
  Proof.
    intros l l' s s' Hl Hs. induction Hl as [|x y l l' Hxy Hl IH]; cbn [resolve_each]; [cbn; constructor|].
    rbind; [apply resolve_var_sim; eassumption|]. intros t t' Ht.
    rbind; [exact IH|]. intros r r' Hr. cbn. now constructor.
  Qed.

  Lemma functor_first_sim fuel o1 o1' fn fn' s s' : sim o1 o1' -> sim fn fn' -> sims s s' ->
    urel
      (match o1 with
       | TAtom ms => do m <- atoms_match fn ms; Ok (if m then Some s else None)
       | TVar _ _ => unify fuel o1 fn s
       | _ => Ok None
       end)
      (match o1' with
       | TAtom ms => do m <- atoms_match fn' ms; Ok (if m then Some s' else None)
       | TVar _ _ => unify fuel o1' fn' s'
       | _ => Ok None
       end).
  Proof.
    intros Ho Hf Hs. destruct Ho; try exact I.
    - rewrite <- (atoms_match_sim _ _ s0 Hf). destruct (atoms_match fn s0) as [m| |]; try exact I.
      apply urel_if, Hs.
    - apply (unify_sim V Vfun); try eassumption. now constructor.
  Qed.

  Lemma bip_functor_sim fuel ts ts' s s' : simo ts ts' -> sims s s' ->
    urel (bip_functor fuel ts s) (bip_functor fuel ts' s').
  Proof.
    intros Ht Hs. apply (orel_case _ _ _ Ht); [exact I|]. clear ts ts' Ht. intros ts ts' Ht.
    cbn [bip_functor]. rewrite <- (Forall2_length' _ _ _ Ht).
    destruct ((length ts <? 2)%nat || (3 <? length ts)%nat); [exact I|].
    rbind; [apply resolve_each_sim; eassumption|]. intros o o' Ho.
    destruct Ho as [|c c' o o' Hc Ho]; [exact I|].
    destruct Hc as [| |x|x|z|id x y Hv|cs cs' HF|? ? ? ? ? ? ? ?|? ? ? ? ?]; try exact I.
    destruct Ho as [|o1 o1' o o' H1 Ho]; [exact I|].
    destruct HF as [|fn fn' cs cs' Hfn HF]; [exact I|].
    rewrite <- (Forall2_length' _ _ _ HF).
    destruct Ho as [|o2 o2' o o' H2 Ho].
    - apply functor_first_sim; eassumption.
    - eapply rrel_bind_opt; [apply functor_first_sim; eassumption|exact I|]. intros u u' Hu.
      apply (unify_sim V Vfun); try eassumption. constructor.
  Qed.

  (* print, print_list: what they write is not related, only the outcome class *)
  Lemma show_resolved_sim fuel : forall l l' s s', Forall2 sim l l' -> sims s s' ->
    rrel (fun a b => length a = length b) (show_resolved fuel l s) (show_resolved fuel l' s').
  Proof.
    intros l l' s s' Hl Hs. induction Hl as [|x y l l' Hxy Hl IH]; cbn [show_resolved]; [reflexivity|].
    rbind; [apply (get_ground_term_sim V); eassumption|]. intros g g' _.
    rbind; [exact IH|]. intros r r' Hr. cbn. now rewrite Hr.
  Qed.

  Lemma format_for_print_pred_class (a b : list str) : length a = length b ->
    rrel (@anyrel str str) (format_for_print_pred a) (format_for_print_pred b).
  Proof.
    intro H. destruct a as [|x a], b as [|y b]; try discriminate; [exact I|].
    cbn [format_for_print_pred].
    destruct (split_pct_s [] x) eqn:E1; [now apply split_pct_s_nonempty in E1|].
    destruct (split_pct_s [] y) eqn:E2; [now apply split_pct_s_nonempty in E2|]. exact I.
  Qed.

  Lemma bip_print_sim fuel ts ts' s s' : simo ts ts' -> sims s s' ->
    rrel (@anyrel str str) (bip_print fuel ts s) (bip_print fuel ts' s').
  Proof.
    intros Ht Hs. apply (orel_case _ _ _ Ht); [exact I|]. intros l l' Hl.
    cbn [bip_print]. rbind; [apply show_resolved_sim; eassumption|].
    intros a b Hab. apply format_for_print_pred_class, Hab.
  Qed.

  Lemma fs_loop_sim : forall fuel t t' l l' s s', sim t t' -> sim l l' -> sims s s' ->
    rrel (@anyrel str str) (fs_loop fuel t l s) (fs_loop fuel t' l' s').
  Proof.
    induction fuel as [|f IH]; intros t t' l l' s s' Ht Hl Hs; cbn [fs_loop];
      (apply rrel_if; [exact (sim_is_nil _ _ _ Ht)|exact I|]); [exact I|].
    destruct Hl as [| |x|x|z|id x y Hv|cs cs' HF|h h' n n' c tv Hh Hn|? ? ? ? ?]; try exact I.
    eapply rrel_bind with (R := fun p p' => sim (fst p) (fst p') /\ sim (snd p) (snd p')).
    - assert (forall a a' b b', sim a a' -> sim b b' ->
        rrel (fun p p' : term * term => sim (fst p) (fst p') /\ sim (snd p) (snd p')) (Ok (a, b)) (Ok (a', b'))) as Hok
        by (intros; cbn; split; assumption).
      destruct Hn as [| |x|x|z|id x y Hv|cs cs' HF|h1 h1' n1 n1' c1 tv1 Hh1 Hn1|? ? ? ? ?];
        try (apply Hok; [eassumption|now constructor]).
      apply rrel_if; [now rewrite (sim_is_anon _ _ _ Hh1)| |].
      + eapply rrel_bind_opt; [apply (get_list_sim V); eassumption|apply Hok; [eassumption|now constructor]|].
        intros g g' Hg. destruct Hg; apply Hok; try eassumption; now constructor.
      + apply Hok; [eassumption|now constructor].
    - intros [a b] [a' b'] [Ha Hb]. cbn [fst snd] in *.
      apply rrel_if; [exact (sim_is_nil _ _ _ Ha)|exact I|].
      rbind; [apply (get_ground_term_sim V); eassumption|]. intros g g' _.
      rbind; [apply IH; eassumption|]. intros r r' _. exact I.
  Qed.

  Lemma format_slist_sim fuel l l' s s' : sim l l' -> sims s s' ->
    rrel (@anyrel str str) (format_slist fuel l s) (format_slist fuel l' s').
  Proof.
    intros Hl Hs. destruct Hl as [| |x|x|z|id x y Hv|cs cs' HF|h h' n n' c tv Hh Hn|? ? ? ? ?]; try exact I.
    cbn [format_slist].
    eapply rrel_bind with (R := @anyrel str str).
    - apply rrel_if; [exact (sim_is_nil _ _ _ Hh)|exact I|].
      rbind; [apply (get_ground_term_sim V); eassumption|]. intros g g' _. exact I.
    - intros a b _. rbind; [apply fs_loop_sim; try eassumption; now constructor|]. intros r r' _. exact I.
  Qed.

  Lemma print_list_terms_sim fuel : forall l l' first s s', Forall2 sim l l' -> sims s s' ->
    rrel (@anyrel str str) (print_list_terms fuel first l s) (print_list_terms fuel first l' s').
  Proof.
    intros l l' first s s' Hl Hs. revert first.
    induction Hl as [|x y l l' Hxy Hl IH]; intro first; cbn [print_list_terms]; [exact I|].
    rbind; [apply resolve_var_sim; eassumption|]. intros t t' Ht.
    eapply rrel_bind with (R := @anyrel str str).
    - destruct Ht; try exact I.
      rbind; [apply format_slist_sim; [now constructor|eassumption]|]. intros o1 o2 _. exact I.
    - intros a b _. rbind; [apply IH|]. intros r r' _. exact I.
  Qed.

  Lemma bip_print_list_sim fuel ts ts' s s' : simo ts ts' -> sims s s' ->
    rrel (@anyrel str str) (bip_print_list fuel ts s) (bip_print_list fuel ts' s').
  Proof.
    intros Ht Hs. apply (orel_case _ _ _ Ht); [exact I|]. intros l l' Hl.
    apply print_list_terms_sim; eassumption.
  Qed.

  Definition bip_rel (r r' : bip_result) : Prop :=
    orel sims (br_sol r) (br_sol r') /\ br_cut r = br_cut r'.

  Lemma pure_bip_sim x y : urel x y -> rrel bip_rel (pure_bip x) (pure_bip y).
  Proof.
    intro H. unfold pure_bip. rbind; [exact H|]. intros a b Hab. cbn. split; [exact Hab|reflexivity].
  Qed.

  (* print, print_list: the solution is the substitution set itself *)
  Lemma out_bip_sim (x y : res str) s s' : rrel (@anyrel str str) x y -> sims s s' ->
    rrel bip_rel (do o <- x; Ok (mkBipResult (Some s) o false)) (do o <- y; Ok (mkBipResult (Some s') o false)).
  Proof. intros H Hs. rbind; [exact H|]. intros a b _. cbn. split; [exact Hs|reflexivity]. Qed.

  (* the dispatch on the name: every arm is closed by the lemma of its built-in *)
  Theorem run_bip_sim fuel fn ts ts' s s' : simo ts ts' -> sims s s' ->
    rrel bip_rel (run_bip fuel fn ts s) (run_bip fuel fn ts' s').
  Proof.
    intros Ht Hs. unfold run_bip.
    repeat (apply rrel_if; [reflexivity| |]);
      try exact I; try (cbn; split; [exact Hs || exact I|reflexivity]);
      auto using pure_bip_sim, out_bip_sim, bip_print_sim, bip_print_list_sim, bip_append_sim, bip_functor_sim,
        bip_filter_sim, bip_compare_sim, bip_count_sim.
    apply (orel_case _ _ _ Ht); [cbn; split; [exact I|reflexivity]|]. clear Ht. intros l l' Ht.
    do 2 (destruct Ht as [|? ? ? ? ? Ht]; [exact I|]). apply pure_bip_sim, unify_sim; assumption.
  Qed.
End Bips.

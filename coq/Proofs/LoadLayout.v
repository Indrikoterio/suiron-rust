(* C21 + C19 closed, end to end: a knowledge base of closed rules, printed rule by rule with
   Display and written to a file with a legal layout (line breaks after continuation characters,
   indentation, comments, blank lines), is loaded by load_kb_from_file - with the real parse_rule
   of Model/Api.v - as exactly that knowledge base.
     - the text of a closed rule is a rule text in the sense of Spec/SpecLoad.v (`wf_text`);
     - the reader returns the texts with one space at every line break (C21); when that leaves the
       texts as they are (`expected ... = texts`, in particular for the `exact_layout`s of C21),
       every text parses to its rule (C19 closed) and add_rules collects them.

   Then the same with a condition on the layout that can be checked by eye: every line break of a
   rule stands immediately after one of the separators of the canonical text -  ,  ;  =  and the
   neck :-  - in place of the single space that follows it.
     - in the text of a closed rule each of these separators is followed by exactly one space and
       then by a character that is not white space (`arun`, an automaton over the text, proved
       from the grammar of the texts);
     - hence a layout that cuts only there (`breaks_at_separators`) is an `exact_layout` of C21:
       the reader's single space at each break restores the text.

   Model/ParseTerm.v, Model/Tokenizer.v and Model/Reader.v each define the character constants of
   their Rust module (`c_lpar`, `Tokenizer.ch_lparen`, `Reader.ch_lparen` ... are the same numbers);
   the texts are stated with the first two, the reader with the third, hence the `change ... with ...`
   steps below.  In the same way `tk_is_whitespace` and `rd_is_ws` are one function written twice. *)
From Coq Require Import Lia String.
From Suiron Require Import Model.Tokenizer Proofs.TokenizerProofs Proofs.GoalRoundtrip.
From Suiron Require Import Model.ParseTerm Model.ParseGoal Model.ShowGoal Model.Api Proofs.ParseTermProofs.
From Suiron Require Import Proofs.TermRoundtrip Proofs.TermRoundtripText Proofs.TermRoundtripMain
  Proofs.GoalLeafText Proofs.GoalLeafParse Proofs.RuleRoundtripClosed.
From Suiron Require Import Model.Reader Spec.SpecLoad Proofs.ReaderProofs.
Open Scope N_scope.

(* what the reader needs to know about a text: its characters, its brackets *)
Record rplain (s : str) : Prop := mkRplain {
  rp_chars : Forall (fun c => fileplain c = true) s;
  rp_round : count_c c_lpar s = count_c c_rpar s;
  rp_square : sqbal s }.

Lemma rplain_app a b : rplain a -> rplain b -> rplain (a ++ b).
Proof.
  intros [A1 A2 A3] [B1 B2 B3]. constructor.
  - apply Forall_app. now split.
  - rewrite !count_c_app. now rewrite A2, B2.
  - now apply sqbal_app.
Qed.

Lemma ltext_rplain u : ltext u -> rplain u.
Proof. intros H. constructor; [apply (lt_plain u H)|apply (lt_bal u H)|apply (lt_sqbal u H)]. Qed.

Lemma rplain_const s : Forall (fun c => fileplain c = true) s ->
  count_c c_lpar s = 0 -> count_c c_rpar s = 0 -> count_c c_lbr s = 0 -> count_c c_rbr s = 0 -> rplain s.
Proof. intros H E1 E2 E3 E4. constructor; [exact H|now rewrite E1, E2|unfold sqbal; now rewrite E3, E4]. Qed.

(* the texts of closed goals: a property of the leaf texts that parentheses and the
   separators ", " and "; " preserve holds of every text *)
Section GoalTexts.
  Variable P : str -> Prop.
  Hypothesis P_leaf : forall l, closed_leaf l -> P (leaf_text l).
  Hypothesis P_paren : forall u, P u -> P ([40] ++ u ++ [41]).
  Hypothesis P_sep : forall a sep b, sep = sep_comma \/ sep = sep_semicolon -> P a -> P b -> P (a ++ sep ++ b).

  Lemma operands_text sep ga gs : sep = sep_comma \/ sep = sep_semicolon -> (2 <= length gs)%nat ->
    (forall g, In g gs -> P (text g)) ->
    P (fl_go sep true (map (fun x => operand_text ga x (text x)) gs)).
  Proof.
    intros Hsep Hlen H. destruct gs as [|x gs]; [cbn in Hlen; lia|]. cbn [map]. rewrite fl_go_cons.
    assert (Hop : forall g, In g (x :: gs) -> P (operand_text ga g (text g))).
    { intros g Hg. unfold operand_text. destruct (needs_group ga g); [apply P_paren|]; now apply H. }
    assert (K : forall l a, (forall g, In g l -> P (operand_text ga g (text g))) -> P a ->
                P (a ++ fl_go sep false (map (fun x => operand_text ga x (text x)) l))).
    { clear -Hsep P_sep. induction l as [|y l IH]; intros a H Ha.
      - cbn [map]. change (fl_go sep false []) with (@nil N). now rewrite app_nil_r.
      - cbn [map]. rewrite fl_go_cons, app_assoc. apply IH; [intros g Hg; apply H; now right|].
        apply P_sep; [exact Hsep|exact Ha|apply H; now left]. }
    apply K; [intros g Hg; apply Hop; now right|apply Hop; now left].
  Qed.

  Theorem closed_goal_text g : closed_goal g -> P (text g).
  Proof.
    induction 1 as [l Hl|gs Hlen Hgs IH|gs Hlen Hgs IH].
    - rewrite (text_leaf l (closed_leaf_is_leaf l Hl)). now apply P_leaf.
    - rewrite text_and. apply operands_text; auto.
    - rewrite text_or. apply operands_text; auto.
  Qed.
End GoalTexts.

Lemma closed_goal_rplain g : closed_goal g -> rplain (text g).
Proof.
  apply closed_goal_text.
  - intros l Hl. destruct (closed_leaf_facts l Hl) as (t & [Hs Lt _ _]). unfold leaf_text. rewrite Hs.
    now apply ltext_rplain.
  - intros u [H1 H2 H3]. constructor.
    + apply Forall_app. split; [repeat constructor|]. apply Forall_app. split; [exact H1|repeat constructor].
    + rewrite !count_c_app, H2. cbn [count_c].
      change (40 =? c_lpar) with true. change (41 =? c_lpar) with false.
      change (40 =? c_rpar) with false. change (41 =? c_rpar) with true. lia.
    + apply sqbal_app; [reflexivity|]. apply sqbal_app; [exact H3|reflexivity].
  - intros a sep b [->| ->] Ha Hb; (apply rplain_app; [exact Ha|apply rplain_app; [|exact Hb]]);
      apply rplain_const; (repeat constructor).
Qed.

Lemma closed_head_call h : closed_head h ->
  exists f ts, show_term h = call_text f (map show_term ts) /\ simple_atom f = true /\
               (forall t, In t ts -> canonical t).
Proof.
  (* the bound 1000 on the length is a unary numeral: it is dropped at once *)
  intros [f ts Hf Hne Hc _|f Hf _].
  - exists f, ts. destruct (goal_functor_facts f Hf) as (Hs & _). rewrite show_complex_text. auto.
  - exists f, []. destruct (goal_functor0_facts f Hf) as (Hs & _). split; [reflexivity|]. split; [exact Hs|intros t []].
Qed.

Lemma closed_head_text h : closed_head h -> ltext (show_term h).
Proof.
  intros H. destruct (closed_head_call h H) as (f & ts & -> & Hs & Hc).
  now destruct (call_text_ltext f ts Hs Hc) as [Lt _].
Qed.

Lemma lex_scan_counts s : Forall (fun c => fileplain c = true) s -> forall st,
  lex_scan st s =
  mkLex (l_rd st + Z.of_N (count_c c_lpar s) - Z.of_N (count_c c_rpar s))
        (l_sd st + Z.of_N (count_c c_lbr s) - Z.of_N (count_c c_rbr s)) (l_inq st).
Proof.
  induction s as [|c s IH]; intros H st.
  - cbn [lex_scan fold_left count_c]. destruct st as [rd sd q]. cbn [l_rd l_sd l_inq]. f_equal; lia.
  - inversion H as [|x l Hc Hs]; subst. rewrite lex_scan_cons, (IH Hs). cbn [count_c].
    unfold lex_step.
    change ch_lparen with c_lpar. change ch_rparen with c_rpar.
    change ch_lbrack with c_lbr. change ch_rbrack with c_rbr.
    assert (Eq : (c =? ch_quote) = false).
    { unfold fileplain in Hc. apply andb_true_iff in Hc as [_ Hc]. now apply negb_true_iff in Hc. }
    destruct (c =? c_lpar) eqn:E1.
    { apply N.eqb_eq in E1. subst c. cbn [l_rd l_sd l_inq].
      change (c_lpar =? c_rpar) with false. change (c_lpar =? c_lbr) with false.
      change (c_lpar =? c_rbr) with false. cbv iota. f_equal; lia. }
    destruct (c =? c_lbr) eqn:E2.
    { apply N.eqb_eq in E2. subst c. cbn [l_rd l_sd l_inq].
      change (c_lbr =? c_rpar) with false. change (c_lbr =? c_rbr) with false. cbv iota. f_equal; lia. }
    destruct (c =? c_rpar) eqn:E3.
    { apply N.eqb_eq in E3. subst c. cbn [l_rd l_sd l_inq].
      change (c_rpar =? c_rbr) with false. cbv iota. f_equal; lia. }
    destruct (c =? c_rbr) eqn:E4.
    { cbn [l_rd l_sd l_inq]. cbv iota. f_equal; lia. }
    rewrite Eq. cbv iota. destruct st as [rd sd q]. cbn [l_rd l_sd l_inq]. f_equal; lia.
Qed.

Lemma rplain_outside s : rplain s -> outside (lex_scan lex0 s) = true.
Proof.
  intros [H1 H2 H3]. rewrite (lex_scan_counts s H1). unfold outside, lex0. cbn [l_rd l_sd l_inq].
  unfold sqbal in H3. rewrite H2, H3.
  assert (E1 : (0 + Z.of_N (count_c c_rpar s) - Z.of_N (count_c c_rpar s) =? 0)%Z = true)
    by (apply Z.eqb_eq; lia).
  assert (E2 : (0 + Z.of_N (count_c c_rbr s) - Z.of_N (count_c c_rbr s) =? 0)%Z = true)
    by (apply Z.eqb_eq; lia).
  now rewrite E1, E2.
Qed.

Lemma fileplain_facts c : fileplain c = true ->
  (c =? ch_period) = false /\ (c =? ch_hash) = false /\ (c =? ch_percent) = false /\
  (c =? ch_slash) = false.
Proof.
  unfold fileplain. intros H. apply andb_true_iff in H as [H _].
  apply andb_true_iff in H as [H H4]. apply andb_true_iff in H as [H H3].
  apply andb_true_iff in H as [H1 H2]. apply negb_true_iff in H1, H2, H3, H4. auto.
Qed.

Lemma one_rule_plain X : Forall (fun c => fileplain c = true) X -> forall st prev,
  outside (lex_scan st X) = true -> one_rule st prev (X ++ [ch_period]) = true.
Proof.
  induction X as [|c X IH]; intros H st prev Ho.
  - cbn [app one_rule]. unfold ends_rule. rewrite N.eqb_refl. cbn [lex_scan fold_left] in Ho.
    rewrite Ho. cbn [hd_or_x]. change (rd_is_digit ch_x) with false. now rewrite andb_false_r.
  - inversion H as [|x l Hc HX]; subst. destruct (fileplain_facts c Hc) as (E & _).
    cbn [app one_rule]. unfold ends_rule. rewrite E. cbn [andb]. apply IH; assumption.
Qed.

Lemma no_comment_plain s : Forall (fun c => (c =? ch_hash) = false /\ (c =? ch_percent) = false /\
                                          (c =? ch_slash) = false) s ->
  forall st prev, no_comment st prev s = true.
Proof.
  induction s as [|c s IH]; intros H st prev; [reflexivity|].
  inversion H as [|x l (E1 & E2 & E3) Hs]; subst. cbn [no_comment]. rewrite E1, E2, E3.
  cbn [orb andb]. rewrite andb_false_r. now apply IH.
Qed.

Lemma printable_not_rd_ws c : printable c -> rd_is_ws c = false.
Proof. exact (printable_not_tk_white c). Qed.

Lemma wf_text_plain X : X <> [] -> printable (hd 0 X) -> rplain X -> wf_text (X ++ [ch_period]) = true.
Proof.
  intros Hne Hh Hp. unfold wf_text.
  assert (E1 : rd_is_ws (hd_or_x (X ++ [ch_period])) = false).
  { destruct X as [|c X']; [now elim Hne|]. cbn [app hd_or_x]. now apply printable_not_rd_ws. }
  rewrite E1. cbn [negb andb].
  rewrite (one_rule_plain X (rp_chars X Hp) lex0 ch_x (rplain_outside X Hp)). cbn [andb].
  apply no_comment_plain. apply Forall_app. split.
  - eapply Forall_impl; [|apply (rp_chars X Hp)]. intros c Hc.
    destruct (fileplain_facts c Hc) as (_ & A & B & C). auto.
  - repeat constructor.
Qed.

Theorem closed_rule_wf_text r : closed_rule r -> wf_text (rule_text r) = true.
Proof.
  intros [Hh Hb]. pose proof (closed_head_text _ Hh) as Lt.
  pose proof (lt_ne _ Lt) as Hne. pose proof (lt_hd _ Lt) as Hhd.
  unfold rule_text. destruct Hb as [Hb|Hb].
  - rewrite Hb. cbn [goal_eqb]. change Tokenizer.ch_period with ch_period.
    apply wf_text_plain; [exact Hne|exact Hhd|now apply ltext_rplain].
  - destruct (closed_goal_facts _ Hb) as [_ Hcan].
    rewrite (canonical_not_nil _ _ (Hcan _ (le_n _))).
    change Tokenizer.ch_period with ch_period.
    replace (show_term (r_head r) ++ neck ++ text (r_body r) ++ [ch_period])
      with ((show_term (r_head r) ++ neck ++ text (r_body r)) ++ [ch_period])
      by (now rewrite <- !app_assoc).
    apply wf_text_plain.
    + destruct (show_term (r_head r)); [now elim Hne|discriminate].
    + destruct (show_term (r_head r)); [now elim Hne|exact Hhd].
    + apply rplain_app; [now apply ltext_rplain|].
      apply rplain_app; [apply rplain_const; (repeat constructor)|now apply closed_goal_rplain].
Qed.

Lemma closed_rules_wf_text rs : Forall closed_rule rs -> forallb wf_text (map rule_text rs) = true.
Proof.
  induction 1 as [|r rs Hr _ IH]; [reflexivity|]. cbn [map forallb].
  now rewrite (closed_rule_wf_text r Hr), IH.
Qed.

Lemma api_parse_rule_closed r : closed_rule r -> api_parse_rule (rule_text r) = Ok (POk r).
Proof.
  intros H. unfold api_parse_rule.
  apply (roundtrip_rule_closed r _ _ H); apply le_n.
Qed.

Lemma lk_loop_all (P : str -> res (presult rule)) rs : forall kb,
  (forall r, In r rs -> P (rule_text r) = Ok (POk r)) ->
  lk_loop P (map rule_text rs) kb = (do kb' <- add_rules kb rs; Ok (kb', true)).
Proof.
  induction rs as [|r rs IH]; intros kb H; [reflexivity|].
  cbn [map lk_loop add_rules]. rewrite (H r (or_introl eq_refl)). cbn [bind].
  destruct (term_key (r_head r)) as [key| |]; cbn [bind]; try reflexivity.
  apply IH. intros x Hx. apply H. now right.
Qed.

Theorem load_closed : forall rs L kb,
  Forall closed_rule rs ->
  legal L (map rule_text rs) = true ->
  expected (lay_rules L) (map rule_text rs) = map rule_text rs ->
  load_kb_from_file api_parse_rule kb (render L (map rule_text rs)) =
  (do kb' <- add_rules kb rs; Ok (kb', true)).
Proof.
  intros rs L kb Hrs Hlegal Hexp.
  rewrite load_kb_spec by (assumption || now apply closed_rules_wf_text).
  rewrite Hexp. apply lk_loop_all. intros r Hr. apply api_parse_rule_closed.
  rewrite Forall_forall in Hrs. now apply Hrs.
Qed.

Corollary load_closed_exact : forall rs L kb,
  Forall closed_rule rs ->
  legal L (map rule_text rs) = true ->
  exact_layout (lay_rules L) (map rule_text rs) = true ->
  load_kb_from_file api_parse_rule kb (render L (map rule_text rs)) =
  (do kb' <- add_rules kb rs; Ok (kb', true)).
Proof.
  intros rs L kb Hrs Hlegal Hex. apply load_closed; try assumption.
  apply exact_expected; [|exact Hex]. apply rules_ok_length.
  unfold legal in Hlegal. now apply andb_true_iff in Hlegal as [H _].
Qed.

(* c, read after prev, is a separator: , ; = or the - of the neck :- *)
Definition sepc (prev c : N) : bool :=
  (c =? 44) || (c =? 59) || (c =? 61) || ((c =? 45) && (prev =? 58)).

(* the automaton: 0 = in the text, 1 = a separator has just been read (a space must follow),
   2 = separator and space read (a character that is not white space must follow) *)
Definition astep (st : nat * N) (c : N) : option (nat * N) :=
  match fst st with
  | 1%nat => if c =? 32 then Some (2%nat, c) else None
  | 2%nat => if rd_is_ws c then None else Some (if sepc (snd st) c then 1%nat else 0%nat, c)
  | _ => Some (if sepc (snd st) c then 1%nat else 0%nat, c)
  end.

Fixpoint arun (st : nat * N) (s : str) : option (nat * N) :=
  match s with
  | [] => Some st
  | c :: tl => match astep st c with Some st' => arun st' tl | None => None end
  end.

Lemma arun_app a : forall st b,
  arun st (a ++ b) = match arun st a with Some st' => arun st' b | None => None end.
Proof.
  induction a as [|c a IH]; intros st b; [reflexivity|].
  cbn [app arun]. destruct (astep st c); [apply IH|reflexivity].
Qed.

(* a component of the text: read from state 0 or 2 after a character that is not a colon, it ends
   in state 0.  The colon (58) is tracked because `-` is a separator only directly after `:` *)
Record component (X : str) : Prop := mkComponent {
  ac_ne : X <> [];
  ac_last : last X 0 <> 58;
  ac_run : forall st p, st = 0%nat \/ st = 2%nat -> p <> 58 ->
           arun (st, p) X = Some (0%nat, last X 0) }.

(* a separator text: read from state 0 it ends in state 0 or 2 *)
Definition separator (S : str) : Prop :=
  exists st' p', (st' = 0%nat \/ st' = 2%nat) /\ p' <> 58 /\
    forall p, p <> 58 -> arun (0%nat, p) S = Some (st', p').

Definition nosepc (c : N) : bool :=
  negb (c =? 44) && negb (c =? 59) && negb (c =? 61) && negb (c =? 58).

Lemma nosepc_facts p c : nosepc c = true -> p <> 58 -> sepc p c = false /\ c <> 58.
Proof.
  unfold nosepc, sepc. intros H Hp.
  apply andb_true_iff in H as [H H4]. apply andb_true_iff in H as [H H3].
  apply andb_true_iff in H as [H1 H2]. apply negb_true_iff in H1, H2, H3, H4.
  rewrite H1, H2, H3. apply N.eqb_neq in Hp. rewrite Hp. rewrite andb_false_r.
  split; [reflexivity|now apply N.eqb_neq].
Qed.

Lemma arun_plain X : Forall (fun c => nosepc c = true) X -> forall p, p <> 58 ->
  arun (0%nat, p) X = Some (0%nat, last X p) /\ last X p <> 58.
Proof.
  induction X as [|c X IH]; intros H p Hp; [split; [reflexivity|exact Hp]|].
  inversion H as [|x l Hc HX]; subst. destruct (nosepc_facts p c Hc Hp) as [Es Hc58].
  cbn [arun astep fst snd]. rewrite Es.
  destruct (IH HX c Hc58) as [IH1 IH2].
  rewrite last_cons. split; assumption.
Qed.

Lemma component_plain X : X <> [] -> rd_is_ws (hd 0 X) = false ->
  Forall (fun c => nosepc c = true) X -> component X.
Proof.
  intros Hne Hh Hall. destruct X as [|c X]; [now elim Hne|]. cbn [hd] in Hh.
  inversion Hall as [|x l Hc HX]; subst.
  pose proof (last_cons c X) as Hl.
  assert (Hc58 : c <> 58) by (apply (nosepc_facts 0 c Hc); discriminate).
  destruct (arun_plain X HX c Hc58) as [R1 R2].
  constructor.
  - discriminate.
  - rewrite Hl. exact R2.
  - intros st p Hst Hp. destruct (nosepc_facts p c Hc Hp) as [Es _].
    rewrite Hl. destruct Hst as [-> | ->]; cbn [arun astep fst snd]; rewrite ?Hh, Es; exact R1.
Qed.

Lemma component_app a b : component a -> component b -> component (a ++ b).
Proof.
  intros [A1 A2 A3] [B1 B2 B3]. constructor.
  - destruct a; [now elim A1|discriminate].
  - rewrite last_app_nonempty by exact B1. exact B2.
  - intros st p Hst Hp. rewrite arun_app, (A3 st p Hst Hp).
    rewrite last_app_nonempty by exact B1. apply B3; [now left|exact A2].
Qed.

Lemma component_app_sep a S b : component a -> separator S -> component b -> component (a ++ S ++ b).
Proof.
  intros [A1 A2 A3] (st' & p' & Hst' & Hp' & HS) [B1 B2 B3]. constructor.
  - destruct a; [now elim A1|discriminate].
  - rewrite app_assoc, last_app_nonempty by exact B1. exact B2.
  - intros st p Hst Hp. rewrite arun_app, (A3 st p Hst Hp). rewrite arun_app, (HS _ A2).
    rewrite app_assoc, last_app_nonempty by exact B1. now apply B3.
Qed.

(* the separator texts, by running the automaton: each leaves the character 32 behind *)
Lemma separator_run S st' : st' = 0%nat \/ st' = 2%nat ->
  (forall p, arun (0%nat, p) S = Some (st', 32)) -> separator S.
Proof. intros Hst H. exists st', 32. split; [exact Hst|]. split; [discriminate|]. intros p _. apply H. Qed.

Lemma separator_comma : separator sep_comma.
Proof. apply (separator_run _ 2%nat); [now right|reflexivity]. Qed.

Lemma separator_semicolon : separator sep_semicolon.
Proof. apply (separator_run _ 2%nat); [now right|reflexivity]. Qed.

Lemma separator_equals : separator [32; c_eq; 32].
Proof. apply (separator_run _ 2%nat); [now right|reflexivity]. Qed.

Lemma separator_neck : separator neck.
Proof. apply (separator_run _ 2%nat); [now right|reflexivity]. Qed.

Lemma separator_bar : separator sep_bar.
Proof. apply (separator_run _ 0%nat); [now left|reflexivity]. Qed.

Lemma tchar_plain_or_comma c : tchar c = true -> nosepc c = true \/ c = c_comma.
Proof.
  intros H. apply tchar_cases in H.
  destruct H as [H|[->|[->|[->|[->|[->|[->| ->]]]]]]]; try (left; reflexivity); [|now right].
  left. apply wchar_range in H. unfold nosepc.
  assert (E1 : (c =? 44) = false) by (apply N.eqb_neq; lia).
  assert (E2 : (c =? 59) = false) by (apply N.eqb_neq; lia).
  assert (E3 : (c =? 61) = false) by (apply N.eqb_neq; lia).
  assert (E4 : (c =? 58) = false) by (apply N.eqb_neq; lia).
  now rewrite E1, E2, E3, E4.
Qed.

Lemma wchars_nosepc w : Forall (fun c => wchar c = true) w -> Forall (fun c => nosepc c = true) w.
Proof.
  intros H. eapply Forall_impl; [|exact H]. intros c Hc.
  destruct (tchar_plain_or_comma c (wchar_tchar c Hc)) as [E| ->]; [exact E|discriminate Hc].
Qed.

Lemma component_word w : word w -> component w.
Proof.
  intros Hw. pose proof Hw as (Hne & Hall & _). apply component_plain; [exact Hne| |now apply wchars_nosepc].
  pose proof (word_hd w Hw) as Hh. apply wchar_range in Hh. apply printable_not_rd_ws. unfold printable. lia.
Qed.

Lemma component_char c : printable c -> nosepc c = true -> component [c].
Proof.
  intros Hp Hc. apply component_plain; [discriminate|now apply printable_not_rd_ws|]. constructor; [exact Hc|constructor].
Qed.

Lemma component_join ps : ps <> [] -> (forall p, In p ps -> component p) -> component (join_strs sep_comma ps).
Proof.
  induction ps as [|p ps IH]; intros Hne H; [now elim Hne|].
  destruct ps as [|q rest]; [cbn [join_strs]; apply H; now left|].
  rewrite join_strs_cons2. apply component_app_sep; [apply H; now left|apply separator_comma|].
  apply IH; [discriminate|]. intros x Hx. apply H. now right.
Qed.

Lemma component_enclosed o c ps : printable o -> nosepc o = true -> printable c -> nosepc c = true ->
  (forall p, In p ps -> component p) -> component (o :: join_strs sep_comma ps ++ [c]).
Proof.
  intros Ho1 Ho2 Hc1 Hc2 H. change (o :: join_strs sep_comma ps ++ [c]) with ([o] ++ join_strs sep_comma ps ++ [c]).
  apply component_app; [now apply component_char|]. destruct ps as [|p ps'].
  - cbn [join_strs app]. now apply component_char.
  - apply component_app; [apply component_join; [discriminate|exact H]|now apply component_char].
Qed.

Theorem gtext_component s : gtext s -> component s.
Proof.
  induction 1 as [w Hw|w Hw|f ps Hf Hps IH|ps Hps IH|ps v Hps IH Hv].
  - now apply component_word.
  - destruct (wide_atom_facts w Hw) as (Hne & Hh & Hall & _).
    apply component_plain; [exact Hne| |].
    + apply ident_char_range in Hh. apply printable_not_rd_ws. unfold printable. lia.
    + eapply Forall_impl; [|exact Hall]. intros c Hc.
      destruct (tchar_plain_or_comma c (achar_tchar c Hc)) as [E| ->]; [exact E|discriminate Hc].
  - unfold call_text. apply component_app; [apply component_word; now apply simple_atom_word|].
    apply component_enclosed; try reflexivity; try (unfold printable, c_lpar, c_rpar; lia). exact IH.
  - unfold list_text. apply component_enclosed; try reflexivity; try (unfold printable, c_lbr, c_rbr; lia). exact IH.
  - unfold list_text_bar.
    change (c_lbr :: (join_strs sep_comma ps ++ sep_bar ++ v) ++ [c_rbr])
      with ([c_lbr] ++ (join_strs sep_comma ps ++ sep_bar ++ v) ++ [c_rbr]).
    assert (Hb : component [c_lbr]) by (apply component_char; [unfold printable, c_lbr; lia|reflexivity]).
    assert (He : component [c_rbr]) by (apply component_char; [unfold printable, c_rbr; lia|reflexivity]).
    destruct ps as [|p ps'].
    + change ([c_lbr] ++ (join_strs sep_comma [] ++ sep_bar ++ v) ++ [c_rbr])
        with (([c_lbr] ++ sep_bar ++ v) ++ [c_rbr]).
      apply component_app; [|exact He]. apply component_app_sep; [exact Hb|apply separator_bar|now apply component_word].
    + apply component_app; [exact Hb|]. apply component_app; [|exact He].
      apply component_app_sep; [apply component_join; [discriminate|exact IH]|apply separator_bar|now apply component_word].
Qed.

Lemma component_wrap name u : simple_atom name = true -> component u -> component (name ++ c_lpar :: u ++ [c_rpar]).
Proof.
  intros Hn Hu. apply component_app; [apply component_word; now apply simple_atom_word|].
  change (c_lpar :: u ++ [c_rpar]) with ([c_lpar] ++ u ++ [c_rpar]).
  apply component_app; [apply component_char; [unfold printable, c_lpar; lia|reflexivity]|].
  apply component_app; [exact Hu|apply component_char; [unfold printable, c_rpar; lia|reflexivity]].
Qed.

Lemma closed_leaf_component l : closed_leaf l -> component (leaf_text l).
Proof.
  induction 1 as [f ts Hf Hne Hc|f Hf|name ts Hn Hne Hc|l r Hl Hr| | | |l Hl IH Hu|l Hl IH Hu].
  - destruct (goal_functor_facts f Hf) as (Hs & _).
    unfold leaf_text. cbn [show_goal]. rewrite show_complex_text.
    apply gtext_component. apply gt_call; [exact Hs|now apply args_gtext].
  - destruct (goal_functor0_facts f Hf) as (Hs & _).
    change (leaf_text (GCall (TComplex [TAtom f]))) with (call_text f []).
    apply gtext_component. apply gt_call; [exact Hs|intros p []].
  - unfold bip_name in Hn. apply andb_true_iff in Hn as [Hb Hnu]. apply negb_true_iff in Hnu.
    destruct (bip_facts name Hb) as (Hs & _).
    unfold leaf_text. cbn [show_goal show_bip]. fold g_unify. rewrite Hnu, format_built_in_text.
    apply gtext_component. apply gt_call; [exact Hs|now apply args_gtext].
  - change (leaf_text (GBip g_unify (Some [l; r]))) with (show_term l ++ [32; c_eq; 32] ++ show_term r).
    apply component_app_sep; [apply gtext_component; now apply canonical_gtext|apply separator_equals|
                        apply gtext_component; now apply canonical_gtext].
  - change (leaf_text (GBip g_bang None)) with [33]. apply component_char; [unfold printable; lia|reflexivity].
  - change (leaf_text (GBip g_fail None)) with [102; 97; 105; 108].
    apply component_plain; [discriminate|reflexivity|repeat constructor].
  - change (leaf_text (GBip g_nl None)) with [110; 108].
    apply component_plain; [discriminate|reflexivity|repeat constructor].
  - destruct (closed_leaf_facts l Hl) as (u & [Hs _ _ _]).
    unfold leaf_text in *. cbn [show_goal]. rewrite Hs in *. cbn [bind].
    change (s2l "not(" ++ u ++ [41]) with (g_not ++ c_lpar :: u ++ [c_rpar]).
    now apply component_wrap.
  - destruct (closed_leaf_facts l Hl) as (u & [Hs _ _ _]).
    unfold leaf_text in *. cbn [show_goal]. rewrite Hs in *. cbn [bind].
    change (s2l "time(" ++ u ++ [41]) with (g_time ++ c_lpar :: u ++ [c_rpar]).
    now apply component_wrap.
Qed.

Lemma closed_goal_component g : closed_goal g -> component (text g).
Proof.
  apply closed_goal_text.
  - apply closed_leaf_component.
  - intros u Hu. apply component_app; [apply component_char; [unfold printable; lia|reflexivity]|].
    apply component_app; [exact Hu|apply component_char; [unfold printable; lia|reflexivity]].
  - intros a sep b [->| ->] Ha Hb; (apply component_app_sep; [exact Ha| |exact Hb]);
      [apply separator_comma|apply separator_semicolon].
Qed.

Lemma closed_head_component h : closed_head h -> component (show_term h).
Proof.
  intros H. destruct (closed_head_call h H) as (f & ts & -> & Hs & Hc).
  apply gtext_component. apply gt_call; [exact Hs|now apply args_gtext].
Qed.

(* the text of a closed rule: the automaton accepts it, it starts with a character that is not
   white space and ends with the period *)
Theorem closed_rule_arun r : closed_rule r ->
  arun (0%nat, ch_x) (rule_text r) = Some (0%nat, ch_period) /\
  rd_is_ws (hd 0 (rule_text r)) = false /\ last (rule_text r) 0 = ch_period.
Proof.
  intros [Hh Hb]. pose proof (closed_head_component _ Hh) as Ah.
  pose proof (closed_head_text _ Hh) as Lt.
  assert (Ad : component [ch_period]) by (apply component_char; [unfold printable, ch_period; lia|reflexivity]).
  assert (A : component (rule_text r)).
  { unfold rule_text. destruct Hb as [Hb|Hb].
    - rewrite Hb. cbn [goal_eqb]. now apply component_app.
    - destruct (closed_goal_facts _ Hb) as [_ Hcan].
      rewrite (canonical_not_nil _ _ (Hcan _ (le_n _))).
      apply component_app_sep; [exact Ah|apply separator_neck|]. apply component_app; [now apply closed_goal_component|exact Ad]. }
  assert (Hlast : last (rule_text r) 0 = ch_period).
  { unfold rule_text. destruct (goal_eqb (r_body r) GNil).
    - apply last_last.
    - rewrite !app_assoc. apply last_last. }
  split; [|split; [|exact Hlast]].
  - rewrite <- Hlast. apply (ac_run _ A); [now left|discriminate].
  - unfold rule_text. pose proof (lt_ne _ Lt) as Hne. pose proof (lt_hd _ Lt) as Hhd.
    destruct (show_term (r_head r)) as [|c0 r0]; [now elim Hne|].
    destruct (goal_eqb (r_body r) GNil); cbn [app hd]; now apply printable_not_rd_ws.
Qed.

Definition ends_with_sep (b : str) : bool :=
  match rev b with
  | c :: p :: _ => sepc p c
  | [c] => sepc ch_x c
  | [] => false
  end.

(* the cut positions of a rule layout (Spec/SpecLoad.v: the lengths of the pieces) *)
Fixpoint cuts_ok (more : list (nat * deco)) (s : str) : bool :=
  match more with
  | [] => true
  | (n, _) :: more' => ends_with_sep (firstn n s) && cuts_ok more' (skipn n s)
  end.

Fixpoint breaks_ok (rls : list rule_layout) (texts : list str) : bool :=
  match rls, texts with
  | rl :: rls', t :: texts' => cuts_ok (snd rl) t && breaks_ok rls' texts'
  | _, _ => true
  end.

(* every piece of every rule but the last ends with , ; = or :- *)
Definition breaks_at_separators (L : layout) (texts : list str) : bool :=
  breaks_ok (lay_rules L) texts.

Lemma sepc_facts p c : sepc p c = true -> rd_is_ws c = false /\ (c =? 32) = false.
Proof.
  unfold sepc. intros H.
  repeat (apply orb_true_iff in H as [H|H]); try (apply N.eqb_eq in H; subst c; split; reflexivity).
  apply andb_true_iff in H as [H _]. apply N.eqb_eq in H. subst c. split; reflexivity.
Qed.

Lemma sepc_any c : sepc ch_x c = true -> forall q, sepc q c = true.
Proof.
  unfold sepc. intros H q. change (ch_x =? 58) with false in H. rewrite andb_false_r, orb_false_r in H.
  rewrite H. reflexivity.
Qed.

Lemma arun_snd a : forall st st', arun st a = Some st' -> snd st' = last a (snd st).
Proof.
  induction a as [|c a IH]; intros st st' H.
  - cbn in H. inversion H. reflexivity.
  - cbn [arun] in H. destruct (astep st c) as [st1|] eqn:E; [|discriminate].
    rewrite (IH _ _ H).
    assert (E1 : snd st1 = c).
    { unfold astep in E. destruct (fst st) as [|[|[|k]]].
      - injection E as <-. reflexivity.
      - destruct (c =? 32); [injection E as <-; reflexivity|discriminate].
      - destruct (rd_is_ws c); [discriminate|injection E as <-; reflexivity].
      - injection E as <-. reflexivity. }
    rewrite E1, last_cons. reflexivity.
Qed.

Lemma ends_with_sep_split a : ends_with_sep a = true ->
  exists a0 c, a = a0 ++ [c] /\ forall q, sepc (last a0 q) c = true.
Proof.
  unfold ends_with_sep. intros H.
  destruct (rev a) as [|c [|p r]] eqn:E; [discriminate| |].
  - exists [], c. split; [|intros q; now apply sepc_any].
    rewrite <- (rev_involutive a), E. reflexivity.
  - exists (rev (p :: r)), c. split.
    + rewrite <- (rev_involutive a), E. reflexivity.
    + intros q. cbn [rev]. now rewrite last_last.
Qed.

Lemma arun_last_sep st a0 c st1 :
  arun st (a0 ++ [c]) = Some st1 -> sepc (last a0 (snd st)) c = true -> st1 = (1%nat, c).
Proof.
  intros H Hs. rewrite arun_app in H. destruct (arun st a0) as [[s0 p0]|] eqn:E; [|discriminate].
  pose proof (arun_snd a0 _ _ E) as Hp. cbn [snd] in Hp. subst p0.
  destruct (sepc_facts _ _ Hs) as [Hw H32].
  cbn [arun] in H. destruct s0 as [|[|[|k]]]; unfold astep in H; cbn [fst snd] in H.
  - rewrite Hs in H. now inversion H.
  - rewrite H32 in H. discriminate.
  - rewrite Hw, Hs in H. now inversion H.
  - rewrite Hs in H. now inversion H.
Qed.

Lemma arun_from1 p s st' : arun (1%nat, p) s = Some st' ->
  (s = [] /\ st' = (1%nat, p)) \/ exists m, s = 32 :: m /\ arun (2%nat, 32) m = Some st'.
Proof.
  destruct s as [|c m]; intros H.
  - left. cbn in H. inversion H. auto.
  - right. cbn [arun astep fst] in H. destruct (c =? 32) eqn:E; [|discriminate].
    apply N.eqb_eq in E. subst c. eauto.
Qed.

Lemma arun_from2 p m st' : arun (2%nat, p) m = Some st' ->
  (m = [] /\ st' = (2%nat, p)) \/ exists x m', m = x :: m' /\ rd_is_ws x = false.
Proof.
  destruct m as [|x m']; intros H.
  - left. cbn in H. inversion H. auto.
  - right. cbn [arun astep fst] in H. destruct (rd_is_ws x) eqn:E; [discriminate|]. eauto.
Qed.

Lemma rd_trim_id m : m <> [] -> rd_is_ws (hd 0 m) = false -> rd_is_ws (last m 0) = false ->
  rd_trim m = m.
Proof.
  intros Hne Hh Hl. destruct m as [|c r]; [now elim Hne|].
  apply trim_id; [exact Hh|]. unfold last_or_x. now rewrite (last_default (c :: r) ch_x 0) by discriminate.
Qed.

Lemma last_skipn_ne (s : str) n d : skipn n s <> [] -> last (skipn n s) d = last s d.
Proof.
  intros H. rewrite <- (firstn_skipn n s) at 2. now rewrite last_app_nonempty.
Qed.

(* a piece that the automaton reads - the first from its start, a later one from state 1 - and
   that does not end in white space *)
Lemma body_exact_run first st b st' :
  arun st b = Some st' -> b <> [] -> rd_is_ws (last b 0) = false ->
  (first = true /\ rd_is_ws (hd 0 b) = false) \/ (first = false /\ fst st = 1%nat) ->
  body_exact first b = true.
Proof.
  intros Hrun Hne Hl [[-> Hh]|[-> Hs]]; cbn [body_exact].
  - apply str_eqb_eq, rd_trim_id; assumption.
  - destruct st as [s0 p]. cbn [fst] in Hs. subst s0.
    destruct (arun_from1 _ _ _ Hrun) as [[E _]|(m & -> & Hm)]; [congruence|].
    destruct (arun_from2 _ _ _ Hm) as [[-> _]|(x & m' & -> & Hx)]; [discriminate Hl|].
    change ch_space with 32. rewrite N.eqb_refl. cbn [andb].
    apply str_eqb_eq, rd_trim_id; [discriminate|exact Hx|exact Hl].
Qed.

(* the pieces of a rule cut at separators are "exact" *)
Lemma exact_from more : forall d s st first,
  arun st s = Some (0%nat, ch_period) -> last s 0 = ch_period ->
  (first = true /\ rd_is_ws (hd 0 s) = false) \/ (first = false /\ fst st = 1%nat) ->
  cuts_ok more s = true -> exact_pieces first (lay d more s) = true.
Proof.
  induction more as [|[n d'] more IH]; intros d s st first Hrun Hlast Hst Hcuts.
  - cbn [lay exact_pieces snd]. rewrite andb_true_r.
    apply (body_exact_run first st s _ Hrun); [intros E; rewrite E in Hlast; discriminate|now rewrite Hlast|exact Hst].
  - cbn [cuts_ok] in Hcuts. apply andb_true_iff in Hcuts as [Hsep Hcuts].
    cbn [lay exact_pieces snd].
    set (a := firstn n s) in *. set (b := skipn n s) in *.
    assert (Hs : s = a ++ b) by (unfold a, b; now rewrite firstn_skipn).
    destruct (ends_with_sep_split a Hsep) as (a0 & c & Ea & Hc).
    rewrite Hs, arun_app in Hrun.
    destruct (arun st a) as [st1|] eqn:Ra; [|discriminate].
    assert (Est1 : st1 = (1%nat, c)).
    { rewrite Ea in Ra. apply (arun_last_sep st a0 c st1 Ra). apply Hc. }
    subst st1.
    destruct (sepc_facts _ _ (Hc 0)) as [Hcw _].
    assert (Hane : a <> []) by (rewrite Ea; apply snoc_ne).
    assert (Hbne : b <> []) by (intros E; rewrite E in Hrun; discriminate).
    assert (Hlb : last b 0 = ch_period).
    { unfold b. rewrite last_skipn_ne by exact Hbne. exact Hlast. }
    apply andb_true_iff. split.
    + apply (body_exact_run first st a _ Ra Hane); [rewrite Ea, last_last; exact Hcw|].
      destruct Hst as [[-> Hh]|Hst]; [left; split; [reflexivity|]|right; exact Hst].
      rewrite Hs in Hh. destruct a; [now elim Hane|exact Hh].
    + apply (IH d' b (1%nat, c) false); [exact Hrun|exact Hlb|right; split; reflexivity|exact Hcuts].
Qed.

Theorem breaks_exact : forall rs rls,
  Forall closed_rule rs -> breaks_ok rls (map rule_text rs) = true ->
  exact_layout rls (map rule_text rs) = true.
Proof.
  induction rs as [|r rs IH]; intros rls Hrs Hb.
  - destruct rls; reflexivity.
  - destruct rls as [|rl rls]; [reflexivity|]. inversion Hrs as [|x l Hr Hrs']; subst.
    cbn [map breaks_ok] in Hb. apply andb_true_iff in Hb as [Hc Hb].
    cbn [map exact_layout]. rewrite (IH rls Hrs' Hb), andb_true_r.
    destruct (closed_rule_arun r Hr) as (Hrun & Hh & Hl).
    unfold pieces. apply (exact_from (snd rl) (fst rl) (rule_text r) (0%nat, ch_x) true Hrun Hl); auto.
Qed.

Theorem load_closed_layout : forall rs L kb,
  Forall closed_rule rs ->
  legal L (map rule_text rs) = true ->
  breaks_at_separators L (map rule_text rs) = true ->
  load_kb_from_file api_parse_rule kb (render L (map rule_text rs)) =
  (do kb' <- add_rules kb rs; Ok (kb', true)).
Proof.
  intros rs L kb Hrs Hlegal Hb. apply load_closed_exact; try assumption.
  now apply breaks_exact.
Qed.

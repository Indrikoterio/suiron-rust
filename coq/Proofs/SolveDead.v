(* C05: an exhausted node stays exhausted.  `dead nd`: the state in which a node is left by
   a request that found no answer; a dead node answers every later request with None,
   changes nothing in the world (no output, no variable ids, no read of the stop flag) and
   stays dead.
   C02 on the machine: a cut never leaves the call whose clause contains it, and every node a cut
   has passed through is committed (flagged), hence dead: nothing after the answer being derived. *)
From Coq Require Import Lia.
From Suiron Require Import Model.Term Model.Subst Model.Show Model.Lists Model.Arith Model.Unify
  Model.Compare Model.Builtins Model.Rename Model.Solve Proofs.SolveRel.
Open Scope N_scope.

Definition dead_opt (dead : node -> Prop) (o : option node) : Prop :=
  match o with Some x => dead x | None => True end.

Fixpoint dead (nd : node) : Prop :=
  match nd with
  | NBip _ _ _ nobt more => nobt = true \/ more = false
  | NCall _ _ nobt child idx n =>
      nobt = true \/ (n <= idx /\ match child with Some c => dead c | None => True end)
  | NOp k _ nobt more head tail optail =>
      nobt = true \/
      match k with
      | ONot | OTime => more = false
      | OAnd => match head with Some h => dead h | None => True end /\
                match tail with Some t => dead t | None => True end
      | OOr => match tail with
               | Some t => dead t
               | None => match head with
                         | None => True
                         | Some h => dead h /\ match optail with None => True | Some tl => tl = [] end
                         end
               end
      end
  end.

Lemma dead_nobt nd : node_nobt nd = true -> dead nd.
Proof. destruct nd as [t ss b c i n|k ss b m h t o|f ts ss b m]; simpl; intro H; left; exact H. Qed.

Lemma dead_set_nobt nd : dead (set_nobt nd).
Proof. destruct nd; simpl; left; reflexivity. Qed.

Lemma dead_flag (c : bool) nd : dead nd -> dead (if c then set_nobt nd else nd).
Proof. destruct c; [intros _; apply dead_set_nobt|auto]. Qed.

Lemma dead_flag_opt (c : bool) o :
  match o with Some h => dead h | None => True end ->
  match (if c then set_nobt_opt o else o) with Some h => dead h | None => True end.
Proof. destruct c, o; simpl; auto using dead_set_nobt. Qed.

Section Dead.
  Variable kb : kbase.
  Variable bf : nat.

  Lemma none_dead :
    (forall nd w nd' sol c w', Next kb bf nd w nd' sol c w' -> sol = None -> dead nd') /\
    (forall ss nobt more head tail o acc w nd' sol c w',
       AndLoop kb bf ss nobt more head tail o acc w nd' sol c w' ->
       sol = None -> dead_opt dead tail -> dead nd') /\
    (forall t ss nobt child idx n w nd' sol c w',
       CallLoop kb bf t ss nobt child idx n w nd' sol c w' ->
       sol = None -> dead_opt dead child -> dead nd').
  Proof.
    (* the paths that answer are excluded; on the others the node returned is the old one with its flag set
       (dead_nobt), or spent, or holds the children that were asked: dead by induction, flagged or not (dead_flag) *)
    apply Next_mut; intros; try discriminate; cbn [dead dead_opt] in *; auto using dead_nobt, dead_flag.
  Qed.

  Lemma dead_inert :
    (forall nd w nd' sol c w', Next kb bf nd w nd' sol c w' -> dead nd ->
       sol = None /\ c = false /\ w' = w /\ dead nd') /\
    (forall ss nobt more head tail o acc w nd' sol c w',
       AndLoop kb bf ss nobt more head tail o acc w nd' sol c w' ->
       dead_opt dead head -> dead_opt dead tail -> sol = None /\ c = acc /\ w' = w /\ dead nd') /\
    (forall t ss nobt child idx n w nd' sol c w',
       CallLoop kb bf t ss nobt child idx n w nd' sol c w' ->
       nobt = true \/ n <= idx -> dead_opt dead child -> sol = None /\ c = false /\ w' = w /\ dead nd').
  Proof.
    apply Next_mut; intros; cbn [dead dead_opt] in *.
    (* On every path but N_nobt and C_nobt the flag of the node is false: `dead` then says that the node is
       spent, or that the children it asks are dead (and, for a call, that no clause is left). *)
    all: repeat match goal with
      | H : false = true \/ _ |- _ => destruct H as [H|H]; [discriminate H|]
      | H : _ /\ _ |- _ => destruct H
      end.
    (* The children are asked in the order of the run.  A dead child: its induction hypothesis says that it
       answers None, reports no cut and leaves the world as it is. *)
    all: repeat match goal with
      | IH : dead ?x -> _ /\ _, H : dead ?x |- _ => destruct (IH H) as (? & ? & ? & ?); clear IH; subst
      end.
    (* Paths that a dead node does not take: a spent node is not asked (N_bip, N_not, N_time: true = false);
       a dead child gives no answer (N_and_tail, N_or_head, N_call_child, A_last_none, A_last_nil, A_tail,
       A_loop: Some _ = None) and no cut (N_or_last_cut); a dead disjunction has no goals left (N_or_next:
       g :: tl = []); a dead call has no clause left (C_skip, C_fact, C_rule, C_rule_none: idx < n <= idx). *)
    all: try discriminate.
    all: try match goal with H : ?i < ?n, H' : ?n <= ?i |- _ => destruct (N.lt_irrefl _ (N.lt_le_trans _ _ _ H H')) end.
    (* What is left returns the node as it was (N_nobt, the spent nodes, N_or_empty, A_none, C_nobt, C_end), or
       with the child it asked in place of the old one, dead again (N_or_tail, N_or_last_none, N_or_last_nil,
       A_fail), or goes on with a loop (N_and_tail_none, N_and, N_call_child_none, N_call): the hypothesis of the
       loop applies, since the children are dead and, for the clause loop, no clause is left. *)
    all: cbn [orb]; rewrite ?orb_false_r; auto 7.
  Qed.
End Dead.

Theorem none_then_dead kb bf fuel nd w nd' c w' :
  next kb bf fuel nd w = Ok (nd', None, c, w') -> dead nd'.
Proof. intros H. now apply next_sound, none_dead in H. Qed.

Theorem dead_stays kb bf fuel nd w nd' r c w' :
  dead nd -> next kb bf fuel nd w = Ok (nd', r, c, w') -> r = None /\ c = false /\ w' = w /\ dead nd'.
Proof. intros Hd H. now apply next_sound, dead_inert in H. Qed.

(* The ways a node is asked repeatedly, and why they differ:
   - `ask_again` (here): exactly m requests with one fuel, every result kept, None included - to say that
     nothing comes after exhaustion;
   - `Asks` (SolveQuiet.v): the same as a relation, each request with a fuel of its own;
   - `Drain` (SolveQuiet.v): requests, each with a fuel of its own, up to the first None; the answers and
     the final world;
   - `ask_all` (RefineCut.v), `drain` (Spec/Refine.v): the function for that, one fuel, at most m requests
     (OutOfFuel beyond); `drain` also returns the node; `drainK` (RefineDen.v) hands every answer to a
     continuation instead of collecting it;
   - `solve_times` (SolveQuiet.v): m calls of `solve`, which clears the stop flag, reads it after the request
     and formats the answer. *)
Fixpoint ask_again (kb : kbase) (bf fuel : nat) (m : nat) (nd : node) (w : world)
  : res (list (option subst) * node * world) :=
  match m with
  | O => Ok ([], nd, w)
  | S m' =>
      do x <- next kb bf fuel nd w;
      let '(nd', r, _, w') := x in
      do y <- ask_again kb bf fuel m' nd' w';
      let '(rs, nd'', w'') := y in
      Ok (r :: rs, nd'', w'')
  end.

Lemma dead_ask_again kb bf fuel : forall m nd w rs nd' w',
  dead nd -> ask_again kb bf fuel m nd w = Ok (rs, nd', w') -> Forall (fun x => x = None) rs /\ w' = w.
Proof.
  induction m as [|m IH]; intros nd w rs nd' w' Hd Ha; cbn [ask_again] in Ha.
  - inversion Ha; subst. split; [constructor|reflexivity].
  - destruct (next kb bf fuel nd w) as [[[[n1 r1] c1] w1]| |] eqn:E; cbn [bind] in Ha; try discriminate.
    destruct (dead_stays _ _ _ _ _ _ _ _ _ Hd E) as (-> & -> & -> & Hd1).
    destruct (ask_again kb bf fuel m n1 w) as [[[rs0 nd0] w0]| |] eqn:E2; cbn [bind] in Ha; try discriminate.
    inversion Ha; subst. destruct (IH _ _ _ _ _ Hd1 E2) as [Hf ->]. split; [constructor; auto|reflexivity].
Qed.

Theorem exhausted_stays_exhausted kb bf fuel nd w nd' c w' :
  next kb bf fuel nd w = Ok (nd', None, c, w') ->
  forall m fuel2 w2 rs nd2 w3,
    ask_again kb bf fuel2 m nd' w2 = Ok (rs, nd2, w3) ->
    Forall (fun r => r = None) rs /\ w3 = w2.
Proof. intros H m fuel2 w2 rs nd2 w3. apply dead_ask_again, (none_then_dead _ _ _ _ _ _ _ _ H). Qed.

Lemma orb_flag (a b c : bool) : (a = true -> b = true) -> a || c = true -> b || c = true.
Proof. intros H [Ha|Hc]%orb_true_iff; [now rewrite (H Ha)|rewrite Hc; apply orb_true_r]. Qed.

Section Cut.
  Variable kb : kbase.
  Variable bf : nat.

  (* A node that reports a cut is committed: its no_backtracking flag is set.  In the conjunction
     loop `acc` says that a cut has run, and then the flag `nobt` the loop carries is set already.
     The clause loop never reports a cut to the outside. *)
  Lemma signal_commits :
    (forall nd w nd' sol c w', Next kb bf nd w nd' sol c w' -> c = true -> node_nobt nd' = true) /\
    (forall ss nobt more head tail o acc w nd' sol c w',
       AndLoop kb bf ss nobt more head tail o acc w nd' sol c w' ->
       c = true -> (acc = true -> nobt = true) -> node_nobt nd' = true) /\
    (forall t ss nobt child idx n w nd' sol c w',
       CallLoop kb bf t ss nobt child idx n w nd' sol c w' -> c = false).
  Proof.
    apply Next_mut; intros; cbn [node_nobt]; try congruence; eauto 6 using orb_flag.
  Qed.

  (* A call node absorbs the cut: whatever happens below it, its caller sees no signal. *)
  Lemma call_no_signal t ss nobt child idx n w nd' sol c w' :
    Next kb bf (NCall t ss nobt child idx n) w nd' sol c w' -> c = false.
  Proof.
    (* the case analysis on the derivation is made for any node: an inversion on the call node costs more *)
    enough (forall nd, Next kb bf nd w nd' sol c w' -> match nd with NCall _ _ _ _ _ _ => c = false | _ => True end) as E
      by (intro H; exact (E _ H)).
    intros nd H. destruct H; try exact I; try reflexivity; [destruct nd; auto|eapply signal_commits; eassumption..].
  Qed.
End Cut.

Theorem call_absorbs_cut kb bf fuel t ss nobt child idx n w nd' r c w' :
  next kb bf fuel (NCall t ss nobt child idx n) w = Ok (nd', r, c, w') -> c = false.
Proof. intro H. now apply next_sound, call_no_signal in H. Qed.

Theorem cut_commits kb bf fuel nd w nd' r w' :
  next kb bf fuel nd w = Ok (nd', r, true, w') -> node_nobt nd' = true.
Proof. intro H. now apply next_sound, signal_commits in H. Qed.

(* The CONVERSE of the refinement theorem of Proofs/RefineCut.v: when the engine drains a query
   (ask_all finishes), the reference search of Spec/SpecCut.v finishes too, for some fuel - with
   the same answers by refines_cut - unless the reference REFUSES the program (Panic: by design
   for a cut directly inside not(..)/time(..), which the engine accepts); and it refuses ONLY
   such programs: if no clause body has a cut directly inside not/time (kbok, Proofs/NotCutInv.v)
   the reference search finishes (refines_cut_converse, refines_cut_converse_ok).

   No values need to be tracked here: what a defined denotation IS follows from the forward step
   lemma (cden_step_all: the denotation of a node, where it is a value, is the value of the
   machine's step `cstepto`).  What is constructed is the FUEL: `def r` = "r is not OutOfFuel";
   results are monotone in the fuel and in the continuation for the information order `rle`
   (OutOfFuel below everything), so fuels are merged by taking the maximum.  The induction is on
   the machine's derivation (Proofs/SolveRel.v): where the step is defined, so is the denotation,
   the continuation being a monotone FAMILY of continuations indexed by the fuel (the reference
   search builds continuations that contain searches).  The two loops are treated as requests to
   a node: fetching a clause, or the remaining goals of a conjunction, gives the node a fresh
   child, whose denotation is exchanged for the reference search of its goal (fresh_ev). *)
From Coq Require Import Lia.
From Suiron Require Import Model.Term Model.Subst Model.Show Model.Lists Model.Arith Model.Unify
  Model.Compare Model.Builtins Model.Rename Model.Solve Spec.SpecCut
  Proofs.RenameProofs Proofs.SolveRel Proofs.SolveDead Proofs.RefinePlain Proofs.RefineCut
  Proofs.NotCutInv.
Open Scope N_scope.

(* the information order on results: OutOfFuel below everything *)
Definition rle {A} (r1 r2 : res A) : Prop := r1 = OutOfFuel \/ r1 = r2.
Definition kle (k1 k2 : ckont) : Prop := forall s w c, rle (k1 s w c) (k2 s w c).

(* Everything below is proved for two readings at once, chosen by the section variable p.
   `def r`: r is defined - a value, or, only when p = true ("refusals count"), a Panic.
   `inv b`: the boolean invariant b holds - required only when p = false; b will be "no cut directly
   inside not/time" (gok on goals, nok on nodes, Proofs/NotCutInv.v), which is what excludes the
   refusals in that reading; when p = true a violated b is harmless, the Panic it causes being defined
   (inv_false). *)
Section Dfd.
Variable p : bool.
Definition def {A} (r : res A) : Prop :=
  match r with Ok _ => True | Panic => p = true | OutOfFuel => False end.
Definition inv (b : bool) : Prop := p = false -> b = true.
Lemma inv_true : inv true. Proof. intro; reflexivity. Qed.
Lemma inv_and a b : inv (a && b) -> inv a /\ inv b.
Proof. intro H. split; intro Hp; specialize (H Hp); apply andb_true_iff in H; tauto. Qed.
Lemma inv_false b : inv b -> b = false -> p = true.
Proof.
  intros H E. destruct (Bool.bool_dec p false) as [Hp|Hp]; [rewrite (H Hp) in E; discriminate|].
  now apply Bool.not_false_is_true.
Qed.

Lemma rle_refl {A} (r : res A) : rle r r. Proof. now right. Qed.
Lemma rle_bot {A} (r : res A) : rle OutOfFuel r. Proof. now left. Qed.
Lemma rle_def {A} (r1 r2 : res A) : rle r1 r2 -> def r1 -> r2 = r1.
Proof. intros [H|H] D; [subst; destruct D|now symmetry]. Qed.
Lemma def_rle {A} (r1 r2 : res A) : rle r1 r2 -> def r1 -> def r2.
Proof. intros H D. now rewrite (rle_def _ _ H D). Qed.
Lemma rle_trans {A} (a b c : res A) : rle a b -> rle b c -> rle a c.
Proof. intros [H|H] [H'|H']; subst; auto using rle_bot, rle_refl. Qed.
Lemma kle_refl k : kle k k. Proof. intros s w c. apply rle_refl. Qed.
Lemma def_ok {A} (a : A) : def (Ok a). Proof. exact I. Qed.

Lemma rle_bind {A B} (a a' : res A) (f f' : A -> res B) :
  rle a a' -> (forall x, rle (f x) (f' x)) -> rle (bind a f) (bind a' f').
Proof.
  intros [E|E] Hf; subst; [apply rle_bot|]. destruct a' as [x| |]; cbn [bind]; auto using rle_refl.
Qed.

Lemma rle_seq a a' (b b' : world -> res cres) :
  rle a a' -> (forall w, rle (b w) (b' w)) -> rle (seq a b) (seq a' b').
Proof. exact (ord_seq (@rle) (@rle_refl) (@rle_bind) a a' b b'). Qed.

Lemma rle_after_body x (r r' : world -> res cres) :
  (forall w, rle (r w) (r' w)) -> rle (after_body x r) (after_body x r').
Proof. exact (ord_aft (@rle) (@rle_refl) (@rle_bind) (Ok x) (Ok x) r r' (rle_refl _)). Qed.

Lemma kle_kbump k1 k2 : kle k1 k2 -> kle (kbump k1) (kbump k2).
Proof. exact (kord_kbump (@rle) (@rle_refl) (@rle_bind) k1 k2). Qed.
Lemma kle_kwrap c1 k1 k2 : kle k1 k2 -> kle (kwrap c1 k1) (kwrap c1 k2).
Proof. exact (kord_kwrap (@rle) (@rle_refl) (@rle_bind) c1 k1 k2). Qed.

Lemma def_bind_inv {A B} {a : res A} {f : A -> res B} : def (bind a f) -> def a.
Proof. destruct a; cbn; auto. Qed.
Lemma def_bind {A B} (a : res A) (f : A -> res B) :
  def a -> (forall x, a = Ok x -> def (f x)) -> def (bind a f).
Proof. destruct a as [x| |]; cbn [bind]; intros D H; [now apply H|exact D|destruct D]. Qed.

(* x is below y in values: what is defined after y is defined after x *)
Lemma def_swap {A B} (x y : res A) (post : A -> res B) : def x -> ole x y -> def (bind y post) -> def (bind x post).
Proof. intros Dx H D. destruct x as [v| |]; [now rewrite (H v eq_refl) in D|exact Dx|destruct Dx]. Qed.

Lemma def_seq a (b : world -> res cres) :
  def a -> (forall a1 w1, a = Ok (a1, w1, Go) -> def (b w1)) -> def (seq a b).
Proof.
  intros Da Hb. unfold seq. apply def_bind; [exact Da|]. intros [[a1 w1] [| |]] E; try apply def_ok.
  apply def_bind; [eapply Hb; eauto|]. intros [[a2 w2] s2] _. apply def_ok.
Qed.
Lemma def_seq_inv {a} {b : world -> res cres} : def (seq a b) -> def a.
Proof. apply def_bind_inv. Qed.

Lemma def_after_body_inv {a1 w1} {r : world -> res cres} : def (after_body (a1, w1, Go) r) -> def (r w1).
Proof. apply def_bind_inv. Qed.

Section Conv.
  Variable kb : kbase.
  Variable bf : nat.
  Hypothesis Hkb : p = false -> kbok kb.

  Lemma csolve_rle f f' g s w k1 k2 : (f <= f')%nat -> kle k1 k2 ->
    rle (csolve kb bf f g s w k1) (csolve kb bf f' g s w k2).
  Proof. apply (proj1 (csolve_ord_all (@rle) (@rle_refl) (@rle_bot) (@rle_bind) kb bf f)). Qed.
  Lemma cclauses_rle f f' t s key idx n w k1 k2 : (f <= f')%nat -> kle k1 k2 ->
    rle (cclauses kb bf f t s key idx n w k1) (cclauses kb bf f' t s key idx n w k2).
  Proof. apply (proj2 (csolve_ord_all (@rle) (@rle_refl) (@rle_bot) (@rle_bind) kb bf f)). Qed.

  Lemma kle_ckand fs fs' optail k1 k2 : (fs <= fs')%nat -> kle k1 k2 ->
    kle (ckand kb bf fs optail k1) (ckand kb bf fs' optail k2).
  Proof.
    intros Hle Hk. unfold ckand. destruct optail as [[|g r]|]; try exact Hk.
    intros s w c. apply rle_bind; [|intro; apply rle_refl].
    apply csolve_rle; [exact Hle|apply kle_kwrap, Hk].
  Qed.

  Lemma cden_rle : forall nd fs fs' w k1 k2, (fs <= fs')%nat -> kle k1 k2 ->
    rle (cden kb bf fs nd w k1) (cden kb bf fs' nd w k2).
  Proof.
    induction nd as [t ss nobt child idx n IHc|kd ss nobt more head tail optail IHh IHt|fn ts ss nobt more] using node_ind2;
      intros fs fs' w k1 k2 Hle Hk; (destruct nobt; [apply rle_refl|]).
    - rewrite !cden_call. apply rle_bind.
      + destruct child as [c|]; [apply IHc; [exact Hle|apply kle_kbump, Hk]|apply rle_refl].
      + intro x. apply rle_after_body. intro w2. apply cclauses_rle; assumption.
    - destruct kd.
      + rewrite !cden_and. apply rle_seq.
        * destruct tail as [t|]; [apply IHt; [exact Hle|apply kle_kwrap, Hk]|apply rle_refl].
        * intro w1. destruct head as [h|]; [|apply rle_refl].
          apply IHh; [exact Hle|apply kle_ckand; assumption].
      + rewrite !cden_or. destruct tail as [t|]; [apply IHt; assumption|].
        destruct head as [h|]; [|apply rle_refl].
        apply rle_seq; [apply IHh; assumption|]. intro w1. unfold correst.
        destruct optail as [[|g r]|]; try apply rle_refl. apply csolve_rle; assumption.
      + cbn [cden node_nobt]. destruct more; [|apply rle_refl]. destruct head as [h|]; [|apply rle_refl].
        destruct (ncutb h); [|apply rle_refl].
        apply rle_bind; [apply IHh; [exact Hle|apply kle_refl]|].
        intros [[a w1] sg]. destruct a; [apply rle_refl|apply Hk].
      + cbn [cden node_nobt]. destruct more; [|apply rle_refl]. destruct head as [h|]; [|apply rle_refl].
        destruct (ncutb h); [|apply rle_refl].
        apply rle_bind; [apply IHh; [exact Hle|apply kle_refl]|].
        intros [[a w1] sg]. destruct a; [apply Hk|apply rle_refl].
    - cbn [cden node_nobt]. destruct more; [|apply rle_refl]. apply csolve_rle; assumption.
  Qed.

  (* "for all large enough fuels" *)
  Definition ev (P : nat -> Prop) : Prop := exists f0, forall fs, (f0 <= fs)%nat -> P fs.

  Lemma ev_const (P : Prop) : P -> ev (fun _ => P).
  Proof. intro H. exists 0%nat. auto. Qed.
  Lemma ev_ge n : ev (fun fs => (n <= fs)%nat).
  Proof. exists n. auto. Qed.
  Lemma ev_and P Q : ev P -> ev Q -> ev (fun fs => P fs /\ Q fs).
  Proof.
    intros [a Ha] [b Hb]. exists (Nat.max a b). intros fs H. split; [apply Ha|apply Hb]; lia.
  Qed.
  Lemma ev_mono (P Q : nat -> Prop) : (forall fs, P fs -> Q fs) -> ev P -> ev Q.
  Proof. intros H [a Ha]. exists a. auto. Qed.
  Lemma ev_ex (P : nat -> Prop) : ev P -> exists fs, P fs.
  Proof. intros [a Ha]. exists a. auto. Qed.
  Lemma ev_all (P : nat -> Prop) : (forall fs, P fs) -> ev P.
  Proof. intro H. exists 0%nat. auto. Qed.
  Lemma ev_imp (P Q : nat -> Prop) : (forall fs, (1 <= fs)%nat -> P fs -> Q fs) -> ev P -> ev Q.
  Proof. intros H [a Ha]. exists (S a). intros fs L. apply H; [lia|apply Ha; lia]. Qed.
  Lemma ev_from1 (P : nat -> Prop) : (forall fs, (1 <= fs)%nat -> P fs) -> ev P.
  Proof. intro H. apply (ev_imp (fun _ => True)); [auto|now apply ev_all]. Qed.
  Lemma ev_imp2 (P Q R : nat -> Prop) : (forall fs, (1 <= fs)%nat -> P fs -> Q fs -> R fs) -> ev P -> ev Q -> ev R.
  Proof. intros H HP HQ. generalize (ev_and _ _ HP HQ). apply ev_imp. intros fs L [A B]. now apply H. Qed.

  Definition kmono (kf : nat -> ckont) : Prop := forall a b, (a <= b)%nat -> kle (kf a) (kf b).
  Lemma kmono_const k : kmono (fun _ => k). Proof. intros a b _. apply kle_refl. Qed.
  Lemma kmono_kbump kf : kmono kf -> kmono (fun fs => kbump (kf fs)).
  Proof. intros H a b L. apply kle_kbump, H, L. Qed.
  Lemma kmono_kwrap c kf : kmono kf -> kmono (fun fs => kwrap c (kf fs)).
  Proof. intros H a b L. apply kle_kwrap, H, L. Qed.
  Lemma kmono_ckand optail kf : kmono kf -> kmono (fun fs => ckand kb bf fs optail (kf fs)).
  Proof. intros H a b L. apply kle_ckand; [exact L|apply H, L]. Qed.

  (* a defined member of a monotone family is its limit *)
  Lemma ev_lim {A} (F : nat -> res A) : (forall a b, (a <= b)%nat -> rle (F a) (F b)) ->
    forall f, def (F f) -> ev (fun fs => F fs = F f).
  Proof. intros M f D. exists f. intros fs L. exact (rle_def _ _ (M f fs L) D). Qed.

  Lemma ev_k kf s w c : kmono kf -> forall f, def (kf f s w c) -> ev (fun fs => kf fs s w c = kf f s w c).
  Proof. intro M. apply (ev_lim (fun fs => kf fs s w c)). intros a b L. apply M, L. Qed.
  Lemma ev_cden kf nd w : kmono kf -> forall f, def (cden kb bf f nd w (kf f)) ->
    ev (fun fs => cden kb bf fs nd w (kf fs) = cden kb bf f nd w (kf f)).
  Proof. intro M. apply (ev_lim (fun fs => cden kb bf fs nd w (kf fs))). intros a b L. apply cden_rle; [exact L|apply M, L]. Qed.
  Lemma ev_def_cden kf nd w f f0 : kmono kf -> def (cden kb bf f nd w (kf f0)) ->
    ev (fun fs => def (cden kb bf fs nd w (kf fs))).
  Proof.
    intros M D. exists (Nat.max f f0). intros fs L. eapply def_rle; [|exact D]. apply cden_rle; [lia|apply M; lia].
  Qed.
  Lemma ev_cclauses kf t s key idx n w : kmono kf -> forall f, def (cclauses kb bf f t s key idx n w (kf f)) ->
    ev (fun fs => cclauses kb bf fs t s key idx n w (kf fs) = cclauses kb bf f t s key idx n w (kf f)).
  Proof.
    intro M. apply (ev_lim (fun fs => cclauses kb bf fs t s key idx n w (kf fs))). intros a b L.
    apply cclauses_rle; [exact L|apply M, L].
  Qed.

  Lemma ncutb_fresh : forall g ss w nd w', make_node kb g ss w = Ok (nd, w') -> has_cut g = false -> ncutb nd = true.
  Proof. intros. eapply make_node_ncut; eauto. Qed.

  (* a search whose first part is the denotation of a fresh node stays defined when that part is
     replaced by the reference search of the node's goal: the two have the same values *)
  Lemma fresh_bind g ss w nd w' k (post : nat -> cres -> res cres) fs :
    make_node kb g ss w = Ok (nd, w') -> (forall a b x, (a <= b)%nat -> rle (post a x) (post b x)) ->
    (def (cden kb bf fs nd w' k) -> exists f, def (csolve kb bf f g ss w k)) ->
    def (bind (cden kb bf fs nd w' k) (post fs)) -> exists F, def (bind (csolve kb bf F g ss w k) (post F)).
  Proof.
    intros Hm Hp IH D. destruct (IH (def_bind_inv D)) as [f D1]. exists (Nat.max f fs).
    apply (def_swap _ (cden kb bf (Nat.max f fs) nd w' k)).
    - eapply def_rle; [|exact D1]. apply csolve_rle; [apply Nat.le_max_l|apply kle_refl].
    - exact (cden_fresh_le kb bf g _ _ ss w nd w' k k Hm (le_n _) (ckle_refl k)).
    - eapply def_rle; [|exact D]. apply rle_bind; [|intro x; apply Hp, Nat.le_max_r].
      apply cden_rle; [apply Nat.le_max_r|apply kle_refl].
  Qed.

  (* a fresh node, read backwards: if its denotation is defined, so is the reference search of its
     goal.  For not(g1) / time(g1) the search asks has_cut g1, the denotation asks ncutb of g1's node.
     If has_cut g1 = false both go on alike (make_node_ncut).  If has_cut g1 = true the search is Panic:
     gok forbids that case when p = false, and when p = true a Panic is defined - so the lemma holds
     there whatever the denotation was. *)
  Lemma cden_fresh_inv : forall g fs ss w nd w' k, inv (gok g) ->
    make_node kb g ss w = Ok (nd, w') -> def (cden kb bf fs nd w' k) ->
    exists f, def (csolve kb bf f g ss w k).
  Proof.
    intros g fs ss w nd w' k Hgk Hm. apply make_node_Made in Hm. revert fs k Hgk.
    induction Hm as [op g1 rest w hn w' E IH|fn ts w|t key w Ek]; intros fs k Hgk D.
    - apply Made_make_node in E. destruct op; cbn [gok forallb] in Hgk; destruct (inv_and _ _ Hgk) as [Hgk1 Hgk2].
      + rewrite cden_and in D. unfold empty in D. rewrite seq_nil_l in D.
        destruct (IH _ _ Hgk1 D) as [f1 D1].
        destruct rest as [|g2 rest'].
        * exists (S f1). rewrite csolve_S. exact D1.
        * exists (S (Nat.max f1 fs)). rewrite csolve_S. unfold csolve_body.
          eapply def_rle; [|exact D1]. apply csolve_rle; [lia|].
          apply (kle_ckand fs (Nat.max f1 fs) (Some (g2 :: rest')) k k); [lia|apply kle_refl].
      + rewrite cden_or in D. destruct rest as [|g2 rest'].
        * destruct (IH _ _ Hgk1 (def_seq_inv D)) as [f1 D1]. exists (S f1). rewrite csolve_S. exact D1.
        * destruct (fresh_bind g1 ss w hn w' k
                      (fun F x => seq (Ok x) (fun w1 => csolve kb bf F (GOp OOr (g2 :: rest')) ss w1 k)) fs E) as [F DF].
          -- intros a b x L. apply rle_seq; [apply rle_refl|]. intro w1. apply csolve_rle; [exact L|apply kle_refl].
          -- exact (IH _ _ Hgk1).
          -- exact D.
          -- exists (S F). rewrite csolve_S. exact DF.
      + destruct (has_cut g1) eqn:Ecut.
        { exists 1%nat. rewrite csolve_S. unfold csolve_body. rewrite Ecut. exact (inv_false _ Hgk1 eq_refl). }
        cbn [cden node_nobt] in D. rewrite (make_node_ncut kb g1 _ _ _ _ Ecut E) in D.
        destruct (fresh_bind g1 ss w hn w' halt1 (fun _ => _) fs E (fun _ _ _ _ => rle_refl _)
                    (IH _ _ Hgk2) D) as [F DF].
        exists (S F). rewrite csolve_S. unfold csolve_body. rewrite Ecut. exact DF.
      + destruct (has_cut g1) eqn:Ecut.
        { exists 1%nat. rewrite csolve_S. unfold csolve_body. rewrite Ecut. exact (inv_false _ Hgk1 eq_refl). }
        cbn [cden node_nobt] in D. rewrite (make_node_ncut kb g1 _ _ _ _ Ecut E) in D.
        destruct (fresh_bind g1 ss w hn w' halt1 (fun _ => _) fs E (fun _ _ _ _ => rle_refl _)
                    (IH _ _ Hgk2) D) as [F DF].
        exists (S F). rewrite csolve_S. unfold csolve_body. rewrite Ecut. exact DF.
    - cbn [cden node_nobt] in D. exists fs. exact D.
    - rewrite cden_call in D. unfold empty in D. cbn [bind] in D. apply def_after_body_inv in D.
      exists (S fs). rewrite csolve_S. unfold csolve_body. rewrite Ek. cbn [bind].
      destruct (count_rules kb key w) as [n w0]. cbn [fst snd] in D. unfold keyof in D. rewrite Ek in D. exact D.
  Qed.

  (* the machine's step as a result (cstepto, Proofs/RefineCut.v) is defined: the continuation is
     defined on the answer, and if it says Go (and no cut ran) so is the denotation of the node as it
     is left.  cden_step_all says that a denotation, when it is a value, is the value of the step;
     here: when the step is defined, the denotation is (for all large enough fuels). *)
  Definition rest_ok (kf : nat -> ckont) (nd' : node) (r : option subst) (c : bool) (w1 : world) : Prop :=
    ev (fun fs => def (cstepto kb bf fs (kf fs) nd' r c w1)).

  Definition Conv (nd : node) (w : world) (nd' : node) (r : option subst) (c : bool) (w1 : world) : Prop :=
    forall kf, kmono kf -> inv (nok nd) -> rest_ok kf nd' r c w1 ->
      ev (fun fs => def (cden kb bf fs nd w (kf fs))).

  Lemma rest_none {kf nd' c w1} : rest_ok kf nd' None c w1.
  Proof. apply ev_all. intro fs. exact I. Qed.

  Lemma rest_ok_eq kf ndP ndC r c w1 :
    (forall fs w2, (1 <= fs)%nat -> c = false -> cden kb bf fs ndP w2 (kf fs) = cden kb bf fs ndC w2 (kf fs)) ->
    rest_ok kf ndP r c w1 -> rest_ok kf ndC r c w1.
  Proof.
    intro H. apply ev_imp. intros fs L D. rewrite <- (cstepto_node kb bf fs (kf fs) ndP ndC); [exact D|].
    intros Hc w2. now apply H.
  Qed.

  (* the step of a node inside a context `post`: where the step is defined, the denotation is *)
  Lemma conv_in {x w x' r c w1} kf (post : nat -> cres -> res cres) :
    Next kb bf x w x' r c w1 -> Conv x w x' r c w1 -> kmono kf -> inv (nok x) ->
    ev (fun fs => def (bind (cstepto kb bf fs (kf fs) x' r c w1) (post fs))) ->
    ev (fun fs => def (bind (cden kb bf fs x w (kf fs)) (post fs))).
  Proof.
    intros E1 IH M Hx E. generalize (IH kf M Hx (ev_mono _ _ (fun fs D => def_bind_inv D) E)). revert E.
    apply ev_imp2. intros fs L D DA. exact (def_swap _ _ _ DA (proj1 (cden_step_all kb bf) _ _ _ _ _ _ E1 fs _ L) D).
  Qed.

  Lemma conv_none {x w x' c w1} kf (F : nat -> world -> res cres) :
    Next kb bf x w x' None c w1 -> Conv x w x' None c w1 -> kmono kf -> inv (nok x) ->
    (c = false -> ev (fun fs => def (F fs w1))) ->
    ev (fun fs => def (seq (cden kb bf fs x w (kf fs)) (F fs))).
  Proof.
    intros E1 IH M Hx HF. apply (conv_in kf (fun fs x => seq (Ok x) (F fs)) E1 IH M Hx).
    destruct c; cbn [cstepto sig_of bind]; [apply ev_all; intro fs; exact I|].
    generalize (HF eq_refl). apply ev_mono. intros fs D. rewrite seq_nil_l. exact D.
  Qed.

  Lemma inv_op_inv {k ss b m head tail optail} : inv (nok (NOp k ss b m head tail optail)) ->
    inv (match k with ONot | OTime => match head with Some h => ncutb h | None => true end | _ => true end) /\
    inv (match head with Some h => nok h | None => true end) /\
    inv (match tail with Some t => nok t | None => true end) /\
    inv (match optail with Some tl => forallb gok tl | None => true end).
  Proof.
    intro H. repeat split; intro Hp; destruct (nok_op_inv _ _ _ _ _ _ _ (H Hp)) as (A & B & C & D); assumption.
  Qed.
  Lemma inv_and_op ss b m head tail optail :
    inv (match head with Some h => nok h | None => true end) ->
    inv (match tail with Some t => nok t | None => true end) ->
    inv (match optail with Some tl => forallb gok tl | None => true end) ->
    inv (nok (NOp OAnd ss b m head tail optail)).
  Proof. intros A B C Hp. apply nok_op; auto. Qed.
  Lemma inv_Next {nd w nd' r c w1} : Next kb bf nd w nd' r c w1 -> inv (nok nd) -> inv (nok nd').
  Proof. intros E H Hp. eapply (nok_Next kb bf (Hkb Hp)); [apply H, Hp|exact E]. Qed.
  Lemma inv_make {g ss w nd w'} : make_node kb g ss w = Ok (nd, w') -> inv (gok g) -> inv (nok nd).
  Proof. intros E H Hp. eapply make_node_nok; [apply H, Hp|exact E]. Qed.
  Lemma inv_body {key idx ctr r ctr'} : get_rule kb key idx ctr = Ok (r, ctr') -> inv (gok (r_body r)).
  Proof. intros E Hp. eapply get_rule_gok; [apply Hkb, Hp|exact E]. Qed.

  (* a fresh node in a context, for all large fuels *)
  Lemma fresh_ev kf {g ss w nd w'} (post : nat -> cres -> res cres) : kmono kf ->
    make_node kb g ss w = Ok (nd, w') -> inv (gok g) -> (forall a b x, (a <= b)%nat -> rle (post a x) (post b x)) ->
    ev (fun fs => def (bind (cden kb bf fs nd w' (kf fs)) (post fs))) ->
    ev (fun fs => def (bind (csolve kb bf fs g ss w (kf fs)) (post fs))).
  Proof.
    intros M Hm Hg Hp [f0 HT].
    destruct (fresh_bind g ss w nd w' (kf f0) post f0 Hm Hp (cden_fresh_inv g f0 ss w nd w' _ Hg Hm) (HT f0 (le_n _)))
      as [F DF].
    exists (Nat.max F f0). intros fs L. eapply def_rle; [|exact DF]. apply rle_bind.
    - apply csolve_rle; [lia|apply M; lia].
    - intro x. apply Hp. lia.
  Qed.

  Lemma fresh_ev0 kf {g ss w nd w'} : kmono kf -> make_node kb g ss w = Ok (nd, w') -> inv (gok g) ->
    ev (fun fs => def (cden kb bf fs nd w' (kf fs))) -> ev (fun fs => def (csolve kb bf fs g ss w (kf fs))).
  Proof.
    intros M Hm Hg E.
    generalize (fresh_ev kf (fun _ x => Ok x) M Hm Hg (fun _ _ x _ => rle_refl _)
                  (ev_mono _ _ (fun fs D => def_bind _ _ D (fun x _ => def_ok x)) E)).
    apply ev_mono. intros fs D. exact (def_bind_inv D).
  Qed.

  Lemma call_child_some {t ss c0 idx n w c1 s c w1} :
    Next kb bf c0 w c1 (Some s) c w1 -> Conv c0 w c1 (Some s) c w1 ->
    Conv (NCall t ss false (Some c0) idx n) w (NCall t ss c (Some c1) idx n) (Some s) false w1.
  Proof.
    intros E1 IH kf M Hn R. apply (conv_in (fun fs => kbump (kf fs)) _ E1 IH (kmono_kbump _ M) Hn).
    revert R. apply ev_mono. intros fs D. erewrite <- cstepto_call in D; [exact D|]. intro w2. destruct c; reflexivity.
  Qed.

  (* ch: the child with which the loop over the clauses goes on *)
  Lemma call_child_none {t ss c0 idx n w c1 c w1} ch {nd' sol c' w'} :
    Next kb bf c0 w c1 None c w1 -> Conv c0 w c1 None c w1 -> ch = None \/ ch = Some c1 ->
    (c = false -> Conv (NCall t ss false ch idx n) w1 nd' sol c' w') ->
    Conv (NCall t ss false (Some c0) idx n) w nd' sol c' w'.
  Proof.
    intros E1 IH Hch IHc kf M Hn R.
    apply (conv_in (fun fs => kbump (kf fs)) _ E1 IH (kmono_kbump _ M) Hn).
    destruct c; cbn [cstepto sig_of bind]; [apply ev_all; intro fs; exact I|].
    assert (dead_opt dead ch /\ inv (nok (NCall t ss false ch idx n))) as [Hd Hn'].
    { destruct Hch; subst ch; split; try exact I; try exact inv_true.
      - exact (Next_dead kb bf E1).
      - exact (inv_Next E1 Hn). }
    generalize (IHc eq_refl kf M Hn' R). apply ev_imp. intros fs L D.
    rewrite cden_call_dead in D by assumption. rewrite after_body_nil. exact D.
  Qed.

  (* fetching a clause with a body: the call node goes on as if the body's fresh node were its child *)
  Lemma call_fetch {t ss child idx n w key r ctr s c0 w2 nd' sol c' w'} :
    dead_opt dead child -> idx < n -> term_key t = Ok key -> get_rule kb key idx (next_id w) = Ok (r, ctr) ->
    unify bf (r_head r) t ss = Ok (Some s) -> is_gnil (r_body r) = false ->
    make_node kb (r_body r) s (w_set_id w ctr) = Ok (c0, w2) ->
    Conv (NCall t ss false (Some c0) (idx + 1) n) w2 nd' sol c' w' ->
    Conv (NCall t ss false child idx n) w nd' sol c' w'.
  Proof.
    intros Hd Hlt Ek Eg Eu Egn E2 IH kf M _ R.
    pose proof (IH kf M (inv_make E2 (inv_body Eg)) R) as EV.
    apply (fresh_ev (fun fs => kbump (kf fs)) _ (kmono_kbump _ M) E2 (inv_body Eg)) in EV.
    2:{ intros a b x L. apply rle_after_body. intro wq. apply cclauses_rle; [exact L|apply M, L]. }
    destruct (ev_ex _ EV) as [f D]. apply (ev_def_cden kf _ _ (S f) f M).
    rewrite cden_call_dead by (assumption || lia). erewrite cclauses_step by eassumption. cbn zeta. rewrite Egn.
    exact D.
  Qed.

  Lemma and_tail_some {ss more head t o w t' s c w1} :
    Next kb bf t w t' (Some s) c w1 -> Conv t w t' (Some s) c w1 ->
    Conv (NOp OAnd ss false more head (Some t) o) w
         (NOp OAnd ss c more (if c then set_nobt_opt head else head) (Some t') o) (Some s) c w1.
  Proof.
    intros E1 IH kf M Hn R. destruct (inv_op_inv Hn) as (_ & _ & Ht & _).
    apply (conv_in (fun fs => kwrap false (kf fs)) _ E1 IH (kmono_kwrap _ _ M) Ht).
    revert R. apply ev_mono. intros fs D. erewrite <- cstepto_seq in D; [exact D|apply kwrap_kwrap|].
    intros -> w2. reflexivity.
  Qed.

  Lemma and_tail_none {ss more head t o w t' c w1 nd' sol c' w'} :
    Next kb bf t w t' None c w1 -> Conv t w t' None c w1 ->
    (c = false -> Conv (NOp OAnd ss false more head (Some t') o) w1 nd' sol c' w') ->
    Conv (NOp OAnd ss false more head (Some t) o) w nd' sol c' w'.
  Proof.
    intros E1 IH IHa kf M Hn R. destruct (inv_op_inv Hn) as (_ & Hh & Ht & Ho).
    apply (conv_none (fun fs => kwrap false (kf fs)) _ E1 IH (kmono_kwrap _ _ M) Ht). intros ->.
    generalize (IHa eq_refl kf M (inv_and_op ss false more head (Some t') o Hh (inv_Next E1 Ht) Ho) R).
    apply ev_imp. intros fs L D. rewrite cden_and_dead in D by (exact (Next_dead kb bf E1) || assumption). exact D.
  Qed.

  (* the head has answered s (c: after a cut): what remains is the reference search of the remaining
     goals from s, marked if c, then the head again; stated with the fresh node t of those goals in
     place of their search - for c = false this is the denotation of the conjunction with tail t *)
  Lemma and_head {ss more h tail g tl w h' s c w1 t w2} kf :
    Conv h w h' (Some s) c w1 -> dead_opt dead tail -> make_node kb (GOp OAnd (g :: tl)) s w1 = Ok (t, w2) ->
    kmono kf -> inv (nok (NOp OAnd ss false more (Some h) tail (Some (g :: tl)))) ->
    ev (fun fs => def (bind (cden kb bf fs t w2 (kwrap c (kf fs)))
                         (fun y => seq (Ok (mark c y))
                                     (fun wq => cden kb bf fs h' wq (ckand kb bf fs (Some (g :: tl)) (kf fs)))))) ->
    ev (fun fs => def (cden kb bf fs (NOp OAnd ss false more (Some h) tail (Some (g :: tl))) w (kf fs))).
  Proof.
    intros IH Hd E2 M Hn ET. destruct (inv_op_inv Hn) as (_ & Hh & _ & Ho).
    apply (fresh_ev (fun fs => kwrap c (kf fs)) _ (kmono_kwrap _ _ M) E2 Ho) in ET.
    2:{ intros a b x L. apply rle_seq; [apply rle_refl|]. intro wq.
        apply cden_rle; [exact L|apply kle_ckand; [exact L|apply M, L]]. }
    assert (rest_ok (fun fs => ckand kb bf fs (Some (g :: tl)) (kf fs)) h' (Some s) c w1) as R1.
    { revert ET. apply ev_mono. intros fs D. cbn [cstepto]. rewrite ckand_wrap. cbn [ckand]. unfold seq at 1.
      rewrite bind_bind. exact D. }
    generalize (IH _ (kmono_ckand _ _ M) Hh R1). apply ev_imp. intros fs L D.
    rewrite cden_and_dead by assumption. exact D.
  Qed.

  Lemma def_seq_mark y (F : world -> res cres) : def (seq (Ok (mark true y)) F).
  Proof. destruct y as [[a w] [| |]]; exact I. Qed.

  (* the head's answer is the conjunction's: no goals remain *)
  Lemma and_last ss more h tail o w h' s c w1 : (forall fs k, ckand kb bf fs o k = k) -> dead_opt dead tail ->
    Conv h w h' (Some s) c w1 ->
    Conv (NOp OAnd ss false more (Some h) tail o) w
         (NOp OAnd ss c more (Some (if c then set_nobt h' else h')) tail o) (Some s) c w1.
  Proof.
    intros Eo Hd IH kf M Hn R. destruct (inv_op_inv Hn) as (_ & Hh & _ & _).
    assert (rest_ok kf h' (Some s) c w1) as R1.
    { revert R. apply rest_ok_eq. intros fs w2 L ->. rewrite cden_and_dead by assumption. now rewrite Eo. }
    generalize (IH kf M Hh R1). apply ev_imp. intros fs L D. rewrite cden_and_dead by assumption. now rewrite Eo.
  Qed.

  Lemma or_head_some {ss more h o w h' s c w1} :
    Next kb bf h w h' (Some s) c w1 -> Conv h w h' (Some s) c w1 ->
    Conv (NOp OOr ss false more (Some h) None o) w
         (NOp OOr ss c more (Some (if c then set_nobt h' else h')) None o) (Some s) c w1.
  Proof.
    intros E1 IH kf M Hn R. destruct (inv_op_inv Hn) as (_ & Hh & _ & _).
    apply (conv_in kf _ E1 IH M Hh).
    revert R. apply ev_mono. intros fs D. erewrite <- cstepto_seq in D; [exact D|reflexivity|].
    intros -> w2. reflexivity.
  Qed.

  Lemma or_head_none {ss more h o w h' c w1 kf} :
    Next kb bf h w h' None c w1 -> Conv h w h' None c w1 -> kmono kf ->
    inv (nok (NOp OOr ss false more (Some h) None o)) ->
    (c = false -> ev (fun fs => def (correst kb bf fs o ss w1 (kf fs)))) ->
    ev (fun fs => def (cden kb bf fs (NOp OOr ss false more (Some h) None o) w (kf fs))).
  Proof.
    intros E1 IH M Hn Ho. destruct (inv_op_inv Hn) as (_ & Hh & _ & _).
    exact (conv_none kf _ E1 IH M Hh Ho).
  Qed.

  (* not / time: the head is asked for its first answer only; `post` is what the node makes of it *)
  Lemma halt_head {kd ss h t o w h' sol c w1} (post : nat -> cres -> res cres) :
    Next kb bf h w h' sol c w1 -> Conv h w h' sol c w1 ->
    inv (nok (NOp kd ss false true (Some h) t o)) -> match kd with ONot | OTime => True | _ => False end ->
    (c = false -> ev (fun fs => forall g, def (post fs (match sol with Some s => [s] | None => [] end, w1, g)))) ->
    ev (fun fs => def (if ncutb h then bind (cden kb bf fs h w halt1) (post fs) else Panic)).
  Proof.
    intros E1 IH Hn Hkd Hpost. destruct (inv_op_inv Hn) as (Hk0 & Hh & _ & _).
    destruct (ncutb h) eqn:En.
    2:{ apply ev_all. intro fs. apply (inv_false false); [destruct kd; try contradiction; exact Hk0|reflexivity]. }
    destruct (ncut_Next kb bf _ _ _ _ _ _ E1 En) as [-> _].
    apply (conv_in (fun _ => halt1) post E1 IH (kmono_const _) Hh).
    generalize (Hpost eq_refl). apply ev_mono. intros fs D. destruct sol as [s|]; apply D.
  Qed.

  (* Where the step is defined the denotation is, by induction on the machine's derivation (one case for
     each constructor of Proofs/SolveRel.v, in that order).  The loops are stated as in cden_step_all
     (behind the test of the flag, with an exhausted tail / child; cden_and_dead and cden_call_dead then
     reduce the node's denotation to that of the head / of the clauses from idx on, given 1 <= fs, which
     ev_imp supplies).  After a cut in a child (c = true) nothing is asked of the loop's induction
     hypothesis: the child's step ends with a mark, so the frame around it is defined whatever follows. *)
  Theorem conv_all :
    (forall nd w nd' r c w1, Next kb bf nd w nd' r c w1 -> Conv nd w nd' r c w1) /\
    (forall ss nobt more head tail o acc w nd' r c w1, AndLoop kb bf ss nobt more head tail o acc w nd' r c w1 ->
       nobt = false -> acc = false -> dead_opt dead tail ->
       Conv (NOp OAnd ss false more head tail o) w nd' r c w1) /\
    (forall t ss nobt child idx n w nd' r c w1, CallLoop kb bf t ss nobt child idx n w nd' r c w1 ->
       nobt = false -> dead_opt dead child -> Conv (NCall t ss false child idx n) w nd' r c w1).
  Proof.
    apply Next_mut.
    - (* N_nobt *) intros nd w Enb kf M Hn R. apply ev_all. intro fs. rewrite cden_nobt by exact Enb. apply def_ok.
    - (* N_bip_spent *) intros * kf M Hn R. apply ev_all. intro fs. apply def_ok.
    - (* N_bip *) intros * Eb kf M Hn R. revert R. apply ev_imp. intros fs L D.
      now rewrite (cden_bip kb bf _ _ _ _ _ _ _ Eb L).
    - (* N_not_spent *) intros * kf M Hn R. apply ev_all. intro fs. apply def_ok.
    - (* N_not *) intros * E1 IH kf M Hn R. cbn [cden node_nobt]. apply (halt_head _ E1 IH Hn I). intros ->.
      destruct sol as [s|]; [apply ev_all; intros fs g; exact I|].
      revert R. apply ev_mono. intros fs D g. cbn [cstepto] in D. rewrite kwrap_false in D. exact (def_seq_inv D).
    - (* N_time_spent *) intros * kf M Hn R. apply ev_all. intro fs. apply def_ok.
    - (* N_time *) intros * E1 IH kf M Hn R. cbn [cden node_nobt]. apply (halt_head _ E1 IH Hn I). intros ->.
      destruct sol as [s|]; [|apply ev_all; intros fs g; exact I].
      revert R. apply ev_mono. intros fs D g. cbn [cstepto] in D. rewrite kwrap_false in D. exact (def_seq_inv D).
    - (* N_and_tail *) intros * E1 IH. exact (and_tail_some E1 IH).
    - (* N_and_tail_none *) intros * E1 IH _ IHa.
      apply (and_tail_none E1 IH). intros ->. apply IHa; [reflexivity|reflexivity|exact (Next_dead kb bf E1)].
    - (* N_and *) intros * _ IHa. now apply IHa.
    - (* N_or_tail *) intros * E1 IH kf M Hn R. destruct (inv_op_inv Hn) as (_ & _ & Ht & _).
      apply (IH kf M Ht). revert R. apply rest_ok_eq. intros fs w2 _ ->. reflexivity.
    - (* N_or_empty *) intros * kf M Hn R. apply ev_all. intro fs. apply def_ok.
    - (* N_or_head *) intros * E1 IH. exact (or_head_some E1 IH).
    - (* N_or_last_none *) intros * E1 IH kf M Hn R.
      apply (or_head_none E1 IH M Hn). intros _. apply ev_all. intro fs. apply def_ok.
    - (* N_or_last_nil *) intros * E1 IH kf M Hn R.
      apply (or_head_none E1 IH M Hn). intros _. apply ev_all. intro fs. apply def_ok.
    - (* N_or_last_cut *) intros * E1 IH kf M Hn R.
      apply (or_head_none E1 IH M Hn). intro Hc. discriminate Hc.
    - (* N_or_next *) intros * E1 IH E2 E3 IH3 kf M Hn R. destruct (inv_op_inv Hn) as (_ & _ & _ & Ho).
      apply (or_head_none E1 IH M Hn). intros _.
      apply (fresh_ev0 kf M E2 Ho), (IH3 kf M (inv_make E2 Ho)).
      revert R. apply rest_ok_eq. intros fs wq _ ->. reflexivity.
    - (* N_call_child *) intros * E1 IH. exact (call_child_some E1 IH).
    - (* N_call_child_none *) intros * E1 IH _ IHc.
      apply (call_child_none None E1 IH (or_introl eq_refl)). intros ->. now apply IHc.
    - (* N_call *) intros * _ IHc. now apply IHc.
    - (* A_none *) intros * _ _ Hd kf M Hn R. apply ev_from1. intros fs L. rewrite cden_and_dead by assumption.
      apply def_ok.
    - (* A_fail *) intros * E1 IH _ _ Hd kf M Hn R. destruct (inv_op_inv Hn) as (_ & Hh & _ & _).
      generalize (IH _ (kmono_ckand o _ M) Hh rest_none). apply ev_imp. intros fs L D.
      rewrite cden_and_dead by assumption. exact D.
    - (* A_last_none *) intros * E1 IH -> -> Hd. now apply and_last.
    - (* A_last_nil *) intros * E1 IH -> -> Hd. now apply and_last.
    - (* A_tail *) intros * E1 IH E2 E3 IH3 -> -> Hd kf M Hn R. destruct (inv_op_inv Hn) as (_ & Hh & _ & Ho).
      apply (and_head kf IH Hd E2 M Hn). destruct c; cbn [orb] in R.
      + assert (rest_ok (fun fs => kwrap true (kf fs)) t' (Some s2) c2 w3) as R3.
        { revert R. apply ev_mono. intros fs D. cbn [cstepto] in *. rewrite kwrap_kwrap. cbn [orb].
          rewrite kwrap_cut_stop in *. exact D. }
        generalize (IH3 _ (kmono_kwrap true _ M) (inv_make E2 Ho) R3). apply ev_mono. intros fs D.
        apply def_bind; [exact D|]. intros y _. apply def_seq_mark.
      + destruct c2; exact (and_tail_some E3 IH3 kf M (inv_and_op ss false more (Some h') (Some t) (Some (g :: tl)) (inv_Next E1 Hh) (inv_make E2 Ho) Ho) R).
    - (* A_loop *) intros * E1 IH E2 E3 IH3 _ IHa -> -> Hd kf M Hn R. destruct (inv_op_inv Hn) as (_ & Hh & _ & Ho).
      apply (and_head kf IH Hd E2 M Hn). destruct c; cbn [orb] in IHa.
      + generalize (IH3 _ (kmono_kwrap true _ M) (inv_make E2 Ho) rest_none). apply ev_mono. intros fs D.
        apply def_bind; [exact D|]. intros y _. apply def_seq_mark.
      + refine (and_tail_none (ss := ss) (more := more) (head := Some h') E3 IH3 _ kf M
                  (inv_and_op ss false more (Some h') (Some t) (Some (g :: tl)) (inv_Next E1 Hh) (inv_make E2 Ho) Ho) R).
        intros ->. apply IHa; [reflexivity|reflexivity|exact (Next_dead kb bf E3)].
    - (* C_nobt *) intros * Hb. discriminate Hb.
    - (* C_end *) intros * Hle _ Hd kf M Hn R. apply ev_from1. intros fs L.
      rewrite cden_call_dead, cclauses_end by assumption. apply def_ok.
    - (* C_skip *) intros * Hlt Ek Eg Eu _ IHc _ Hd kf M Hn R.
      destruct (ev_ex _ (ev_and _ _ (ev_ge 1) (IHc eq_refl Hd kf M Hn R))) as (f & L & D).
      apply (ev_def_cden kf _ _ (S f) f M). rewrite cden_call_dead in D by assumption.
      rewrite cden_call_dead by (assumption || lia). erewrite cclauses_step by eassumption. exact D.
    - (* C_fact *) intros * Hlt Ek Eg Eu Egn _ Hd kf M Hn R.
      destruct (ev_ex _ (ev_and _ _ (ev_ge 1) R)) as (f & L & D).
      apply (ev_def_cden kf _ _ (S f) f M).
      rewrite cden_call_dead by (assumption || lia). erewrite cclauses_step by eassumption. cbn zeta. rewrite Egn.
      cbn [cstepto] in D. rewrite kwrap_false in D. erewrite seq_ext; [exact D|].
      intro wq. symmetry. now apply cden_call_dead.
    - (* C_rule *) intros * Hlt Ek Eg Eu Egn E2 E3 IH3 _ Hd.
      exact (call_fetch Hd Hlt Ek Eg Eu Egn E2 (call_child_some E3 IH3)).
    - (* C_rule_none *) intros * Hlt Ek Eg Eu Egn E2 E3 IH3 _ IHc _ Hd.
      apply (call_fetch Hd Hlt Ek Eg Eu Egn E2), (call_child_none (Some c1) E3 IH3 (or_intror eq_refl)).
      intros ->. apply IHc; [reflexivity|exact (Next_dead kb bf E3)].
  Qed.

  Lemma ask_all_defined : forall m F nd w R', inv (nok nd) ->
    ask_all kb bf m F nd w = Ok R' -> ev (fun fs => def (cden kb bf fs nd w collect)).
  Proof.
    induction m as [|m IH]; intros F nd w R' Hn H; [discriminate|].
    cbn [ask_all] in H. ok H as [[[nd1 o1] b1] w1]. apply next_sound in E.
    apply (proj1 conv_all _ _ _ _ _ _ E (fun _ => collect) (kmono_const _) Hn).
    destruct o1 as [s|]; [|apply rest_none].
    destruct (ask_all kb bf m F nd1 w1) as [[a2 w3]| |] eqn:Ed; cbn [bind] in H; try discriminate.
    generalize (IH _ _ _ _ (inv_Next E Hn) Ed). apply ev_mono. intros fs D. cbn [cstepto].
    apply def_seq; [destruct b1; exact I|]. intros a1 w2 Ea. destruct b1; inversion Ea; subst. exact D.
  Qed.

  Theorem query_defined q w nd w1 m F R' :
    make_base_node kb (GCall q) w = Ok (nd, w1) -> ask_all kb bf m F nd w1 = Ok R' ->
    exists fs, def (csolve kb bf fs (GCall q) [] w collect).
  Proof.
    intros Hm Hd.
    assert (make_node kb (GCall q) [] w = Ok (nd, w1)) as Hm' by exact Hm.
    pose proof (inv_make Hm' inv_true) as Hn.
    destruct (ev_ex _ (ask_all_defined _ _ _ _ _ Hn Hd)) as [fs0 D0].
    exact (cden_fresh_inv (GCall q) _ _ _ _ _ _ inv_true Hm' D0).
  Qed.
End Conv.
End Dfd.

(* a defined reference search of the query has the engine's result *)
Lemma defined_answers p kb bf q w nd w1 m F R' fs :
  make_base_node kb (GCall q) w = Ok (nd, w1) -> ask_all kb bf m F nd w1 = Ok R' ->
  def p (csolve kb bf fs (GCall q) [] w collect) ->
  canswers kb bf fs q w = Ok R' \/ p = true /\ canswers kb bf fs q w = Panic.
Proof.
  intros Hm Hd D. pose proof (refines_cut kb bf q w fs) as Hr. unfold canswers in *. fold collect in Hr |- *.
  destruct (csolve kb bf fs (GCall q) [] w collect) as [[[a wE] g]| |]; [left|right; now split|destruct D].
  now rewrite (Hr (a, wE) nd w1 m F R' eq_refl Hm Hd).
Qed.

(* The converse of refines_cut: when the engine drains the query's node, the reference search of
   the query finishes for some fuel - then with the engine's answers and final world - or it
   REFUSES the program. *)
Theorem refines_cut_converse kb bf q w nd w1 m F R' :
  make_base_node kb (GCall q) w = Ok (nd, w1) -> ask_all kb bf m F nd w1 = Ok R' ->
  (exists fs, canswers kb bf fs q w = Ok R') \/ (exists fs, canswers kb bf fs q w = Panic).
Proof.
  intros Hm Hd.
  destruct (query_defined true kb bf ltac:(discriminate) q w nd w1 m F R' Hm Hd) as [fs D].
  destruct (defined_answers _ _ _ _ _ _ _ _ _ _ _ Hm Hd D) as [H|[_ H]]; eauto.
Qed.

(* ... and it refuses only programs with a cut directly inside not(..) / time(..): when no clause
   body contains one (`kbok`, decidable), the reference search finishes. *)
Theorem refines_cut_converse_ok kb bf q w nd w1 m F R' :
  kbok kb ->
  make_base_node kb (GCall q) w = Ok (nd, w1) -> ask_all kb bf m F nd w1 = Ok R' ->
  exists fs, canswers kb bf fs q w = Ok R'.
Proof.
  intros Hk Hm Hd.
  destruct (query_defined false kb bf (fun _ => Hk) q w nd w1 m F R' Hm Hd) as [fs D].
  destruct (defined_answers _ _ _ _ _ _ _ _ _ _ _ Hm Hd D) as [H|[H _]]; [eauto|discriminate H].
Qed.

(* C19, closing the gap between terms and goals, part 2: the real leaf parser parse_subgoal
   inverts Display on the leaf goals
     f(t1, ..., tn)            n >= 1, f an atom [a-z][A-Za-z0-9_]* that make_goal does not read as
                               something else (fail, nl, not, time, the built-in predicates)
     f()                       f as above, other than fail, nl, not, time (a built-in predicate
                               name is an ordinary functor here: make_goal_no_args)
     name(t1, ..., tn)         n >= 1, name a built-in predicate other than unify
     l = r                     unify
     !  fail  nl
     not(leaf)  time(leaf)     leaf as above but not `l = r`
   with canonical terms as arguments.  Each such leaf satisfies `leaf_ok (parse_subgoal F)` of
   Proofs/GoalRoundtrip.v for every F from the length of its text + 2 on. *)
From Coq Require Import Lia String.
From Suiron Require Import Model.Tokenizer Proofs.TokenizerStream Proofs.TokenizerProofs Proofs.GoalRoundtrip.
From Suiron Require Import Model.ParseTerm Model.ParseGoal Model.Show Model.ShowGoal.
From Suiron Require Import Proofs.ParseTermProofs Proofs.ParseRoundtrip.
From Suiron Require Import Proofs.TermRoundtrip Proofs.TermRoundtripText Proofs.TermRoundtripComplex Proofs.TermRoundtripMain Proofs.GoalLeafText.
Open Scope N_scope.

Definition goal_reserved (f : str) : bool :=
  str_eqb f g_fail || str_eqb f g_nl || str_eqb f g_time || str_eqb f g_not ||
  existsb (str_eqb f) bip_with_args.
Definition goal_functor (f : str) : bool := simple_atom f && negb (goal_reserved f).

(* without arguments: f() is make_goal_no_args f, which only fail, nl and ! turn into something
   else; time() and not() are errors *)
Definition goal_reserved0 (f : str) : bool :=
  str_eqb f g_fail || str_eqb f g_nl || str_eqb f g_time || str_eqb f g_not.
Definition goal_functor0 (f : str) : bool := simple_atom f && negb (goal_reserved0 f).

Definition g_unify : str := s2l "unify".
Definition bip_name (name : str) : bool :=
  existsb (str_eqb name) bip_with_args && negb (str_eqb name g_unify).

Lemma simple_atom_not_bang f : simple_atom f = true -> str_eqb f g_bang = false.
Proof.
  intros H. destruct (str_eqb f g_bang) eqn:E; [|reflexivity].
  apply str_eqb_eq in E. subst f. discriminate H.
Qed.

Lemma make_goal_call f ts : goal_functor f = true ->
  make_goal f ts = GCall (TComplex (TAtom f :: ts)).
Proof.
  unfold goal_functor, goal_reserved. intros H. apply andb_true_iff in H as [Hs Hr].
  apply negb_true_iff in Hr.
  apply orb_false_iff in Hr as [Hr H5]. apply orb_false_iff in Hr as [Hr H4].
  apply orb_false_iff in Hr as [Hr H3]. apply orb_false_iff in Hr as [H1 H2].
  unfold make_goal. now rewrite H1, H2, (simple_atom_not_bang f Hs), H5.
Qed.

Lemma goal_functor_facts f : goal_functor f = true ->
  simple_atom f = true /\ str_eqb f g_time = false /\ str_eqb f g_not = false.
Proof.
  unfold goal_functor, goal_reserved. intros H. apply andb_true_iff in H as [Hs Hr].
  apply negb_true_iff in Hr.
  apply orb_false_iff in Hr as [Hr H5]. apply orb_false_iff in Hr as [Hr H4].
  apply orb_false_iff in Hr as [Hr H3]. auto.
Qed.

Lemma goal_functor0_facts f : goal_functor0 f = true ->
  simple_atom f = true /\ str_eqb f g_time = false /\ str_eqb f g_not = false /\
  make_goal_no_args f = GCall (TComplex [TAtom f]).
Proof.
  unfold goal_functor0, goal_reserved0. intros H. apply andb_true_iff in H as [Hs Hr].
  apply negb_true_iff in Hr.
  apply orb_false_iff in Hr as [Hr H4]. apply orb_false_iff in Hr as [Hr H3].
  apply orb_false_iff in Hr as [H1 H2]. repeat split; try assumption.
  unfold make_goal_no_args. now rewrite H1, H2, (simple_atom_not_bang f Hs).
Qed.

Lemma goal_functor_functor0 f : goal_functor f = true -> goal_functor0 f = true.
Proof.
  unfold goal_functor, goal_functor0, goal_reserved, goal_reserved0. intros H.
  apply andb_true_iff in H as [Hs Hr]. rewrite Hs. cbn [andb].
  apply negb_true_iff in Hr. apply orb_false_iff in Hr as [Hr _]. now rewrite Hr.
Qed.

Lemma bip_in name : existsb (str_eqb name) bip_with_args = true -> In name bip_with_args.
Proof.
  intros H. apply existsb_exists in H as (x & Hx & E). apply str_eqb_eq in E. now subst.
Qed.

Lemma bip_facts name : existsb (str_eqb name) bip_with_args = true ->
  simple_atom name = true /\ str_eqb name g_time = false /\ str_eqb name g_not = false /\
  forall ts, make_goal name ts = GBip name (Some ts).
Proof.
  (* every name of the table passes goal_functor0; with arguments make_goal looks it up *)
  intros H. assert (Hall : forallb goal_functor0 bip_with_args = true) by reflexivity.
  rewrite forallb_forall in Hall.
  destruct (goal_functor0_facts name (Hall name (bip_in name H))) as (Hs & Ht & Hn & Hmk).
  repeat split; try assumption. intros ts. unfold make_goal, make_goal_no_args in *.
  destruct (str_eqb name g_fail || str_eqb name g_nl || str_eqb name g_bang); [discriminate|].
  now rewrite H.
Qed.

Fixpoint fb_go (comma : bool) (l : list term) : str :=
  match l with
  | [] => []
  | t :: l' => (if comma then sep_comma else []) ++ show_term t ++ fb_go true l'
  end.

Lemma format_built_in_go name ts : format_built_in name ts = name ++ [40] ++ fb_go false ts ++ [41].
Proof. reflexivity. Qed.

Lemma fb_go_true l : l <> [] -> fb_go true l = sep_comma ++ join_strs sep_comma (map show_term l).
Proof.
  induction l as [|x l IH]; intros Hne; [now elim Hne|].
  cbn [fb_go map]. destruct l as [|y l'].
  - cbn [fb_go map join_strs]. now rewrite app_nil_r.
  - rewrite IH by discriminate. cbn [map]. rewrite join_strs_cons2. reflexivity.
Qed.

Lemma fb_go_false l : fb_go false l = join_strs sep_comma (map show_term l).
Proof.
  destruct l as [|x l]; [reflexivity|]. cbn [fb_go map app].
  destruct l as [|y l'].
  - cbn [fb_go map join_strs]. now rewrite app_nil_r.
  - rewrite fb_go_true by discriminate. cbn [map]. rewrite join_strs_cons2. reflexivity.
Qed.

Lemma format_built_in_text name ts : format_built_in name ts = call_text name (map show_term ts).
Proof. rewrite format_built_in_go, fb_go_false. reflexivity. Qed.

(* what the goal level needs to know about a leaf text *)
Definition nocolon (s : str) : Prop := Forall (fun c => (c =? ch_colon) = false) s.

Definition printable_ends (u : str) : Prop := u <> [] /\ printable (hd 0 u) /\ printable (last u 0).

Record ltext (u : str) : Prop := mkLtext { lt_ends : printable_ends u; lt_top : top_text u }.

Lemma lt_ne u : ltext u -> u <> [].
Proof. intros H. apply (lt_ends u H). Qed.
Lemma lt_hd u : ltext u -> printable (hd 0 u).
Proof. intros H. apply (lt_ends u H). Qed.
Lemma lt_last u : ltext u -> printable (last u 0).
Proof. intros H. apply (lt_ends u H). Qed.
Lemma lt_crosses u : ltext u -> crosses true u.
Proof. intros H. apply (lt_top u H). Qed.
Lemma lt_bal u : ltext u -> count_c c_lpar u = count_c c_rpar u.
Proof. intros H. apply (sg_bal u (proj1 (lt_top u H))). Qed.
Lemma lt_sqbal u : ltext u -> sqbal u.
Proof. intros H. apply (sg_sq u (proj1 (lt_top u H))). Qed.
Lemma lt_nocolon u : ltext u -> nocolon u.
Proof.
  intros H. eapply Forall_impl; [|apply (sg_chars u (proj1 (lt_top u H)))].
  intros c Hc. apply andb_true_iff in Hc as [Hc _]. now apply negb_true_iff in Hc.
Qed.
Lemma lt_plain u : ltext u -> Forall (fun c => fileplain c = true) u.
Proof.
  intros H. eapply Forall_impl; [|apply (sg_chars u (proj1 (lt_top u H)))].
  intros c Hc. now apply andb_true_iff in Hc as [_ Hc].
Qed.

Lemma ltext_neutral u : ltext u -> neutral u.
Proof.
  intros H. apply neutral_of_scan; [apply (lt_ne u H)| |apply (lt_crosses u H)].
  apply tk_trim_printable; [apply (lt_ne u H)|apply (lt_hd u H)|apply (lt_last u H)].
Qed.

Lemma ltext_tight u : ltext u -> exists c r, u = c :: r /\ tk_is_whitespace c = false.
Proof.
  intros H. pose proof (lt_ne u H) as Hne. pose proof (lt_hd u H) as Hh.
  destruct u as [|c r]; [now elim Hne|]. exists c, r. split; [reflexivity|].
  now apply printable_not_tk_white.
Qed.

Lemma ltext_glue a m b : printable_ends a -> printable_ends b -> top_text (a ++ m ++ b) -> ltext (a ++ m ++ b).
Proof.
  intros (Ha & Hh & _) (Hb & _ & Hl) Ht. split; [|exact Ht].
  destruct a as [|x a]; [now elim Ha|]. split; [discriminate|]. split; [exact Hh|].
  rewrite !app_assoc. now rewrite last_app_nonempty.
Qed.

Lemma gtext_ltext s : gtext s -> ltext s.
Proof.
  intros Hg. pose proof (gtext_good s Hg) as H. destruct (good_printable_ends s H) as [Hh Hl].
  split; [exact (conj (g_ne s H) (conj Hh Hl))|now apply gtext_top].
Qed.

Lemma gtext_nosp s : gtext s -> Forall (fun c => nosp c = true) s.
Proof. intros Hg. apply tchars_nosp. apply (g_chars s (gtext_good s Hg)). Qed.

Lemma parse_subgoal_trim_eq fuel a b : trim a = trim b -> parse_subgoal fuel a = parse_subgoal fuel b.
Proof.
  intros E. destruct fuel as [|f]; [reflexivity|]. cbn [parse_subgoal].
  unfold parse_subgoal_body. now rewrite E.
Qed.

Lemma not_special_last w : last w 0 = c_rpar ->
  str_eqb w g_bang || str_eqb w g_fail || str_eqb w g_nl = false.
Proof.
  intros Hl.
  assert (K : forall g, last g 0 <> c_rpar -> str_eqb w g = false).
  { intros g Hg. destruct (str_eqb w g) eqn:E; [|reflexivity]. apply str_eqb_eq in E. subst w.
    now elim Hg. }
  rewrite !K by (vm_compute; discriminate). reflexivity.
Qed.

(* the common part: the text is split at its outer parentheses *)
Lemma parse_subgoal_split rt ra rs f body :
  simple_atom f = true -> parens_balanced body = true ->
  Forall (fun c => nosp c = true) body ->
  parse_subgoal_body rt ra rs (f ++ c_lpar :: body ++ [c_rpar]) =
  (if str_eqb f g_time || str_eqb f g_not then parse_operator_goal rs f body
   else match trim body with
        | [] => pok (make_goal_no_args f)
        | _ => dop args <- ra body; pok (make_goal f args)
        end).
Proof.
  intros Hf Hbal Hnosp.
  pose proof (simple_atom_functor_ok f Hf) as Hok.
  destruct (simple_atom_no_parens f Hf) as [Hc1 Hc2].
  unfold parse_subgoal_body. rewrite (call_text_trimmed f body Hok).
  set (w := f ++ c_lpar :: body ++ [c_rpar]).
  rewrite (match_nonempty w) by apply call_text_nonempty.
  rewrite (not_special_last w (last_call_text f body)).
  assert (Hci : check_infix w = Ok (INone, O)).
  { unfold check_infix. apply ci_loop_none.
    - unfold w. rewrite app_length. cbn [length]. rewrite app_length. cbn [length]. lia.
    - unfold w. apply Forall_app. split.
      + apply tchars_nosp. pose proof (simple_atom_word f Hf) as (_ & Hall & _).
        eapply Forall_impl; [|exact Hall]. intros c Hc. now apply wchar_tchar.
      + constructor; [reflexivity|]. apply Forall_app. split; [exact Hnosp|repeat constructor]. }
  rewrite Hci. cbn [bind infix_eqb negb].
  unfold w. rewrite indices_of_parentheses_call by assumption.
  unfold split_complex_term. rewrite slice_prefix. cbn [bind]. rewrite slice_middle. cbn [bind].
  reflexivity.
Qed.

Theorem parse_subgoal_call_text : forall fuel f ps ts,
  simple_atom f = true -> str_eqb f g_time = false -> str_eqb f g_not = false ->
  ps <> [] -> (forall p, In p ps -> gtext p) ->
  Forall2 (fun p t => parse_term (S fuel) p = Ok (POk t)) ps ts ->
  parse_subgoal (S (S fuel)) (call_text f ps) = Ok (POk (make_goal f ts)).
Proof.
  intros fuel f ps ts Hf Ht Hn Hne Hps Hp.
  assert (Hg : Forall good ps).
  { apply Forall_forall. intros p Hin. apply gtext_good. now apply Hps. }
  cbn [parse_subgoal]. unfold call_text. rewrite parse_subgoal_split.
  - rewrite Ht, Hn. cbn [orb]. rewrite (join_trimmed ps Hg).
    destruct (join_ends ps Hne Hg) as (Hbne & _ & _).
    rewrite (match_nonempty (join_strs sep_comma ps)) by exact Hbne.
    rewrite (parse_arguments_pieces fuel ps ts Hne Hg Hp). reflexivity.
  - exact Hf.
  - unfold parens_balanced. apply N.eqb_eq. apply (i_bal _ (inner_join ps Hg)).
  - apply tchars_nosp. apply (i_chars _ (inner_join ps Hg)).
Qed.

Theorem parse_subgoal_call_empty : forall fuel f,
  simple_atom f = true -> str_eqb f g_time = false -> str_eqb f g_not = false ->
  parse_subgoal (S fuel) (call_text f []) = Ok (POk (make_goal_no_args f)).
Proof.
  intros fuel f Hf Ht Hn. cbn [parse_subgoal]. unfold call_text. cbn [join_strs].
  rewrite parse_subgoal_split; [|exact Hf|reflexivity|constructor].
  rewrite Ht, Hn. reflexivity.
Qed.

Lemma canonical_args_parse fuel ts body_len :
  (forall t, In t ts -> canonical t) ->
  (forall t, In t ts -> (length (show_term t) <= body_len)%nat) -> (body_len + 2 <= fuel)%nat ->
  Forall2 (fun p t => parse_term fuel p = Ok (POk t)) (map show_term ts) ts.
Proof.
  intros Hc Hl Hf. induction ts as [|t ts IH]; cbn [map]; constructor.
  - apply parse_term_show_canonical; [apply Hc; now left|].
    unfold parse_fuel. specialize (Hl t (or_introl eq_refl)). lia.
  - apply IH; intros x Hx; [apply Hc|apply Hl]; now right.
Qed.

Lemma call_text_length f ps : length (call_text f ps) = (length f + 2 + length (join_strs sep_comma ps))%nat.
Proof. unfold call_text. rewrite app_length. cbn [length]. rewrite app_length. cbn [length]. lia. Qed.

Lemma args_gtext ts : (forall t, In t ts -> canonical t) -> forall p, In p (map show_term ts) -> gtext p.
Proof. intros H. apply gtext_map. intros t Ht. apply canonical_gtext. now apply H. Qed.

Theorem parse_subgoal_call_canonical : forall F f ts,
  simple_atom f = true -> str_eqb f g_time = false -> str_eqb f g_not = false ->
  ts <> [] -> (forall t, In t ts -> canonical t) ->
  (length (call_text f (map show_term ts)) + 2 <= F)%nat ->
  parse_subgoal F (call_text f (map show_term ts)) = Ok (POk (make_goal f ts)).
Proof.
  intros F f ts Hf Ht Hn Hne Hc HF. rewrite call_text_length in HF.
  destruct F as [|[|fuel]]; [lia|lia|].
  apply parse_subgoal_call_text; try assumption.
  - destruct ts; [now elim Hne|discriminate].
  - now apply args_gtext.
  - apply (canonical_args_parse (S fuel) ts (length (join_strs sep_comma (map show_term ts)))); [exact Hc| |lia].
    intros t Hin. apply join_length_ge. now apply in_map.
Qed.

Lemma unify_text_length l r : length (unify_text l r) = (length l + 3 + length r)%nat.
Proof. unfold unify_text. rewrite !app_length. cbn [length]. lia. Qed.

Lemma ltext_unify l r : gtext l -> gtext r -> ltext (unify_text l r).
Proof.
  intros Hl Hr. apply ltext_glue; [apply (gtext_ltext l Hl)|apply (gtext_ltext r Hr)|].
  apply top_app; [now apply gtext_top|]. apply top_app; [|now apply gtext_top].
  apply top_chars. repeat constructor.
Qed.

Theorem parse_subgoal_unify_text : forall fuel l r tl tr,
  gtext l -> gtext r ->
  parse_term fuel l = Ok (POk tl) -> parse_term fuel r = Ok (POk tr) ->
  parse_subgoal (S fuel) (unify_text l r) = Ok (POk (GBip g_unify (Some [tl; tr]))).
Proof.
  intros fuel l r tl tr Hl Hr Pl Pr.
  pose proof (gtext_good l Hl) as Gl. pose proof (gtext_good r Hr) as Gr.
  pose proof (check_infix_unify l r (gtext_nosp l Hl) (sg_pc l (proj1 (gtext_top l Hl))) (g_ne r Gr)) as Hci.
  change (unify_text l r) with (infix_text l (op_text IUnify) r) in *.
  rewrite (context_independent_infix fuel IUnify (s2l "unify") l r eq_refl); [now rewrite Pl, Pr| | |exact Hci].
  - pose proof (g_hdw l Gl) as H. pose proof (g_ne l Gl). destruct l; [contradiction|exact H].
  - rewrite (last_default r 32 0) by apply (g_ne r Gr). apply (g_lastw r Gr).
Qed.

Lemma ltext_wrap name u :
  simple_atom name = true -> ltext u -> ltext (name ++ c_lpar :: u ++ [c_rpar]).
Proof.
  intros Hn Lu. pose proof (simple_atom_word name Hn) as Hw. pose proof Hw as (Hne & Hall & _).
  apply (ltext_glue name (c_lpar :: u) [c_rpar]).
  - split; [exact Hne|]. split.
    + pose proof (word_hd _ Hw) as Hc. apply wchar_range in Hc. unfold printable. lia.
    + pose proof (Forall_last _ name 0 Hne Hall) as Hc. cbv beta in Hc.
      apply wchar_range in Hc. unfold printable. lia.
  - split; [discriminate|]. unfold printable, c_rpar. cbn [hd last]. lia.
  - apply top_call; [now apply wchars_ochars|exact Hne|now apply simple_atom_last_lnh|].
    apply (lt_top u Lu).
Qed.

Lemma nosp_wrap name u : simple_atom name = true -> Forall (fun c => nosp c = true) u ->
  Forall (fun c => nosp c = true) (name ++ c_lpar :: u ++ [c_rpar]).
Proof.
  intros Hn Hu. pose proof (simple_atom_word name Hn) as (_ & Hall & _).
  apply Forall_app. split.
  - apply tchars_nosp. eapply Forall_impl; [|exact Hall]. intros c Hc. now apply wchar_tchar.
  - constructor; [reflexivity|]. apply Forall_app. split; [exact Hu|repeat constructor].
Qed.

Theorem parse_subgoal_wrap : forall F name k u l,
  (name = g_not /\ k = ONot) \/ (name = g_time /\ k = OTime) ->
  ltext u -> Forall (fun c => nosp c = true) u ->
  parse_subgoal F u = Ok (POk l) ->
  parse_subgoal (S F) (name ++ c_lpar :: u ++ [c_rpar]) = Ok (POk (GOp k [l])).
Proof.
  intros F name k u l Hk Lu Hu Pu.
  assert (Hn : simple_atom name = true) by (destruct Hk as [[-> _]|[-> _]]; reflexivity).
  cbn [parse_subgoal]. rewrite parse_subgoal_split; [|exact Hn| |exact Hu].
  2:{ unfold parens_balanced. apply N.eqb_eq. apply (lt_bal _ Lu). }
  unfold parse_operator_goal. rewrite Pu. cbn [pbind].
  destruct Hk as [[-> ->]|[-> ->]]; reflexivity.
Qed.

Definition is_unify (l : goal) : bool :=
  match l with
  | GBip n (Some _) => str_eqb n g_unify
  | _ => false
  end.

Inductive closed_leaf : goal -> Prop :=
| cl_call f ts : goal_functor f = true -> ts <> [] -> (forall t, In t ts -> canonical t) ->
    closed_leaf (GCall (TComplex (TAtom f :: ts)))
| cl_call0 f : goal_functor0 f = true -> closed_leaf (GCall (TComplex [TAtom f]))
| cl_bip name ts : bip_name name = true -> ts <> [] -> (forall t, In t ts -> canonical t) ->
    closed_leaf (GBip name (Some ts))
| cl_unify l r : canonical l -> canonical r -> closed_leaf (GBip g_unify (Some [l; r]))
| cl_cut : closed_leaf (GBip g_bang None)
| cl_fail : closed_leaf (GBip g_fail None)
| cl_nl : closed_leaf (GBip g_nl None)
| cl_not l : closed_leaf l -> is_unify l = false -> closed_leaf (GOp ONot [l])
| cl_time l : closed_leaf l -> is_unify l = false -> closed_leaf (GOp OTime [l]).

Lemma ltext_const u : u <> [] -> Forall (fun c => wchar c = true \/ c = 33) u -> ltext u.
Proof.
  intros Hne Hall.
  assert (Ho : Forall (fun c => ochar c = true) u).
  { eapply Forall_impl; [|exact Hall]. intros c [Hc| ->]; [now apply wchar_ochar|reflexivity]. }
  assert (Hpr : forall c, wchar c = true \/ c = 33 -> printable c).
  { intros c [Hc| ->]; [apply wchar_range in Hc|]; unfold printable; lia. }
  split; [|now apply top_chars]. split; [exact Hne|]. split.
  - destruct u; [now elim Hne|]. inversion Hall; subst. now apply Hpr.
  - apply Hpr. now apply (Forall_last (fun c => wchar c = true \/ c = 33)).
Qed.

Lemma nosp_const u : Forall (fun c => wchar c = true \/ c = 33) u -> Forall (fun c => nosp c = true) u.
Proof.
  intros H. eapply Forall_impl; [|exact H]. intros c [Hc| ->]; [|reflexivity].
  apply tchar_nosp. now apply wchar_tchar.
Qed.

Record leaf_facts (l : goal) (t : str) : Prop := mkLeafFacts {
  lf_show : show_goal l = Ok t;
  lf_text : ltext t;
  lf_nosp : is_unify l = false -> Forall (fun c => nosp c = true) t;
  lf_parse : forall F, (length t + 2 <= F)%nat -> parse_subgoal F t = Ok (POk l) }.

Lemma call_text_ltext f ts : simple_atom f = true -> (forall t, In t ts -> canonical t) ->
  ltext (call_text f (map show_term ts)) /\
  Forall (fun c => nosp c = true) (call_text f (map show_term ts)).
Proof.
  intros Hf Hc.
  assert (Hg : gtext (call_text f (map show_term ts))) by (apply gt_call; [exact Hf|now apply args_gtext]).
  split; [now apply gtext_ltext|now apply gtext_nosp].
Qed.

Lemma leaf_facts_const name :
  name <> [] -> Forall (fun c => wchar c = true \/ c = 33) name ->
  show_goal (GBip name None) = Ok name ->
  (forall fuel, parse_subgoal (S fuel) name = Ok (POk (GBip name None))) ->
  leaf_facts (GBip name None) name.
Proof.
  intros Hne Hall Hs Hp. constructor; [exact Hs|now apply ltext_const|intros _; now apply nosp_const|].
  intros F HF. destruct F as [|fuel]; [lia|]. apply Hp.
Qed.

Lemma leaf_facts_wrap name k l u :
  (name = g_not /\ k = ONot) \/ (name = g_time /\ k = OTime) -> is_unify l = false ->
  leaf_facts l u -> leaf_facts (GOp k [l]) (name ++ c_lpar :: u ++ [c_rpar]).
Proof.
  intros Hk Hu [Hs Lu Nu Pu]. specialize (Nu Hu).
  assert (Hn : simple_atom name = true) by (destruct Hk as [[-> _]|[-> _]]; reflexivity).
  constructor.
  - cbn [show_goal]. rewrite Hs. now destruct Hk as [[-> ->]|[-> ->]].
  - now apply ltext_wrap.
  - intros _. now apply nosp_wrap.
  - intros F HF. rewrite app_length in HF. cbn [length] in HF. rewrite app_length in HF.
    cbn [length] in HF. destruct F as [|fuel]; [lia|].
    apply parse_subgoal_wrap; [exact Hk|exact Lu|exact Nu|]. apply Pu. lia.
Qed.

Theorem closed_leaf_facts l : closed_leaf l -> exists t, leaf_facts l t.
Proof.
  induction 1 as [f ts Hf Hne Hc|f Hf|name ts Hn Hne Hc|l r Hl Hr| | | |l Hl IH Hu|l Hl IH Hu].
  - (* a call *)
    destruct (goal_functor_facts f Hf) as (Hs & Ht & Hnn).
    destruct (call_text_ltext f ts Hs Hc) as [Lt Ns].
    exists (call_text f (map show_term ts)). constructor.
    + cbn [show_goal]. now rewrite show_complex_text.
    + exact Lt.
    + intros _. exact Ns.
    + intros F HF. rewrite parse_subgoal_call_canonical by assumption. now rewrite make_goal_call.
  - (* a call without arguments: f() *)
    destruct (goal_functor0_facts f Hf) as (Hs & Ht & Hnn & Hmk).
    destruct (call_text_ltext f [] Hs ltac:(intros t [])) as [Lt Ns]. cbn [map] in Lt, Ns.
    exists (call_text f []). constructor.
    + reflexivity.
    + exact Lt.
    + intros _. exact Ns.
    + intros F HF. destruct F as [|fuel]; [lia|].
      rewrite parse_subgoal_call_empty by assumption. now rewrite Hmk.
  - (* a built-in predicate in functional notation *)
    unfold bip_name in Hn. apply andb_true_iff in Hn as [Hb Hnu]. apply negb_true_iff in Hnu.
    destruct (bip_facts name Hb) as (Hs & Ht & Hnn & Hmk).
    destruct (call_text_ltext name ts Hs Hc) as [Lt Ns].
    exists (call_text name (map show_term ts)). constructor.
    + cbn [show_goal show_bip]. fold g_unify. rewrite Hnu. now rewrite format_built_in_text.
    + exact Lt.
    + intros _. exact Ns.
    + intros F HF. rewrite parse_subgoal_call_canonical by assumption. now rewrite Hmk.
  - (* l = r *)
    pose proof (canonical_gtext l Hl) as Gl. pose proof (canonical_gtext r Hr) as Gr.
    exists (unify_text (show_term l) (show_term r)). constructor.
    + reflexivity.
    + now apply ltext_unify.
    + intros E. discriminate E.
    + intros F HF. rewrite unify_text_length in HF. destruct F as [|fuel]; [lia|].
      apply parse_subgoal_unify_text; try assumption;
        apply parse_term_show_canonical; try assumption; unfold parse_fuel; lia.
  - exists g_bang. apply leaf_facts_const; [discriminate| |reflexivity|reflexivity].
    constructor; [now right|constructor].
  - exists g_fail. apply leaf_facts_const; [discriminate| |reflexivity|reflexivity].
    repeat (constructor; [now left|]). constructor.
  - exists g_nl. apply leaf_facts_const; [discriminate| |reflexivity|reflexivity].
    repeat (constructor; [now left|]). constructor.
  - destruct IH as (u & Hf). eexists. apply (leaf_facts_wrap g_not ONot); [now left|exact Hu|exact Hf].
  - destruct IH as (u & Hf). eexists. apply (leaf_facts_wrap g_time OTime); [now right|exact Hu|exact Hf].
Qed.

Lemma closed_leaf_is_leaf l : closed_leaf l -> is_leaf_goal l = true.
Proof. destruct 1; reflexivity. Qed.

(* the hypothesis of Proofs/GoalRoundtrip.v, for the real leaf parser *)
Theorem closed_leaf_ok : forall l F, closed_leaf l ->
  (length (leaf_text l) + 2 <= F)%nat -> leaf_ok (parse_subgoal F) l.
Proof.
  intros l F Hl HF. destruct (closed_leaf_facts l Hl) as (t & [Hs Lt _ Pt]).
  split; [now apply closed_leaf_is_leaf|]. exists t. split; [exact Hs|].
  split; [now apply ltext_neutral|]. apply Pt. unfold leaf_text in HF. now rewrite Hs in HF.
Qed.

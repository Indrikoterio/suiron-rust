(* The shape of a successful run of `unify`, and the invariant principle built on it: a property
   of terms inherited by the parts unify looks at holds of every binding of the result, and any
   reflexive, transitive relation between substitution sets that every single binding step
   satisfies relates the input and the output.  C06 (extension), C08 (no cycle), C09 (`$_` never
   bound) and the preservation of well-formedness are instances. *)
From Suiron Require Import Model.Term Model.Subst Model.Show Model.Lists Model.Arith Model.Unify
  Spec.SpecUnify.
Open Scope N_scope.

Lemma feqb_sym a b : feqb a b = feqb b a.
Proof.
  unfold feqb, fcmp. rewrite (Flocq.IEEE754.Binary.Bcompare_swap 53 1024 b a).
  destruct (Flocq.IEEE754.Binary.Bcompare 53 1024 b a) as [[| |]|]; reflexivity.
Qed.

Lemma nth_error_ss_set_nat_same : forall i ss t, nth_error (ss_set_nat ss i t) i = Some (Some t).
Proof. induction i as [|i IH]; intros [|x r] t; simpl; auto. Qed.

Lemma nth_error_ss_set_nat_other : forall i j ss t, i <> j ->
  (match nth_error (ss_set_nat ss i t) j with Some (Some u) => Some u | _ => None end) =
  (match nth_error ss j with Some (Some u) => Some u | _ => None end).
Proof.
  induction i as [|i IH]; intros [|j] [|x r] t Hne; simpl; try congruence; auto.
  - destruct j; reflexivity.
  - rewrite IH by congruence. destruct j; reflexivity.
Qed.

Lemma ss_get_set_same ss id t : ss_get (ss_set ss id t) id = Some t.
Proof. unfold ss_get, ss_set. now rewrite nth_error_ss_set_nat_same. Qed.

Lemma ss_get_set_other ss id j t : j <> id -> ss_get (ss_set ss id t) j = ss_get ss j.
Proof.
  intro Hne. unfold ss_get, ss_set. apply nth_error_ss_set_nat_other.
  intro H. apply Hne. symmetry. now apply N2Nat.inj.
Qed.

Lemma ss_get_nil id : ss_get [] id = None.
Proof. unfold ss_get. destruct (N.to_nat id); reflexivity. Qed.

Definition ss_all (Q : term -> Prop) (ss : subst) : Prop := forall id t, ss_get ss id = Some t -> Q t.

Lemma ss_all_nil Q : ss_all Q [].
Proof. intros id t H. now rewrite ss_get_nil in H. Qed.

Lemma ss_all_set Q ss id t : ss_all Q ss -> Q t -> ss_all Q (ss_set ss id t).
Proof.
  intros Hs Ht j u Hj. destruct (N.eq_dec j id) as [->|Hne].
  - rewrite ss_get_set_same in Hj. now injection Hj as <-.
  - rewrite ss_get_set_other in Hj by assumption. eauto.
Qed.

Lemma keeps_refl s : keeps s s. Proof. intros i t H; exact H. Qed.
Lemma keeps_trans a b c : keeps a b -> keeps b c -> keeps a c.
Proof. intros H1 H2 i t H. apply H2, H1, H. Qed.
Lemma keeps_set ss id t : ss_get ss id = None -> keeps ss (ss_set ss id t).
Proof.
  intros Hn i u Hi. destruct (N.eq_dec i id) as [->|Hne]; [congruence|now rewrite ss_get_set_other].
Qed.

(* Complex terms have an atom as functor (make_complex and the parser guarantee it). *)
Fixpoint wf_term (t : term) : bool :=
  match t with
  | TComplex (TAtom _ :: rest) =>
      (fix go (l : list term) : bool :=
         match l with [] => true | x :: l' => wf_term x && go l' end) rest
  | TComplex _ => false
  | TList a n _ _ => wf_term a && wf_term n
  | _ => true
  end.

Definition wf_ss (ss : subst) : Prop := forall i t, ss_get ss i = Some t -> wf_term t = true.

Lemma wf_complex_inv f rest : wf_term (TComplex (f :: rest)) = true ->
  (exists s, f = TAtom s) /\ forallb wf_term rest = true.
Proof.
  simpl. destruct f; try discriminate. intro H. split; [eauto|].
  induction rest as [|x r IH]; simpl in *; [reflexivity|].
  apply andb_true_iff in H as [H1 H2]. now rewrite H1, IH.
Qed.

Lemma evaluate_constant fuel op args ss v : evaluate fuel op args ss = Ok v -> is_constant v = true.
Proof.
  unfold evaluate. intro H.
  destruct (get_numbers fuel args ss) as [[ns hf]| |]; simpl in H; try discriminate.
  destruct hf.
  - destruct op; try (inversion H; subst; reflexivity);
      destruct (get_floats ns); try discriminate; inversion H; subst; reflexivity.
  - destruct op;
      try (destruct (get_integers ns); try discriminate);
      match type of H with bind ?x _ = _ => destruct x; simpl in H; try discriminate end;
      inversion H; subst; reflexivity.
Qed.

Lemma eval_function_constant fuel name args ss v :
  eval_function fuel name args ss = Ok (Some v) -> is_constant v = true.
Proof.
  unfold eval_function. intro H.
  destruct (str_eqb name fname_join).
  { unfold evaluate_join in H. destruct (get_all_terms fuel args ss); simpl in H; try discriminate.
    inversion H; subst. reflexivity. }
  repeat match type of H with
         | (if ?c then _ else _) = _ => destruct c
         end;
    try discriminate;
    match type of H with bind ?x _ = _ => destruct x eqn:E; simpl in H; try discriminate end;
    inversion H; subst; eapply evaluate_constant; eauto.
Qed.

Lemma unify_S f : unify (S f) = unify_body (unify f) f.
Proof. reflexivity. Qed.

(* The variable arm looks at `other` first, to hand a function term over to its own arm; for every
   other `other` the nine copies of the rest are the same. *)
Lemma body_var rec f id n b ss : term_eqb (TVar id n) b = false -> is_anon b = false ->
  (forall name args, b <> TFun name args) ->
  unify_body rec f (TVar id n) b ss =
  if id =? 0 then Panic else
  match ss_get ss id with
  | Some u => rec u b ss
  | None => do al <- chain_reaches f id b ss; Ok (Some (if al then ss else ss_set ss id b))
  end.
Proof.
  intros E A F. unfold unify_body. rewrite E, A. destruct b; try reflexivity. now destruct (F name args).
Qed.

(* How one level of `unify` and its two loops can succeed, read off the code once; `rec` is the
   recursive call.  Successful runs only: what is said of failing or panicking runs (completeness,
   termination, the simulation up to names) goes through `unify_body` itself. *)
Section Shape.
  Variable rec : term -> term -> subst -> res (option subst).

  (* `s2` is what the loop returns when no pair was unified *)
  Inductive args_ok : list term -> list term -> subst -> subst -> subst -> Prop :=
  | ao_end ls rs s s2 : ls = [] \/ rs = [] -> args_ok ls rs s s2 s2
  | ao_skip l r ls rs s s2 o : is_anon l || is_anon r = true ->
      args_ok ls rs s s2 o -> args_ok (l :: ls) (r :: rs) s s2 o
  | ao_step l r ls rs s s2 s1 o : is_anon l || is_anon r = false -> rec l r s = Ok (Some s1) ->
      args_ok ls rs s1 s1 o -> args_ok (l :: ls) (r :: rs) s s2 o.

  Lemma unify_args_ok : forall ls rs s s2 o,
    unify_args rec ls rs s s2 = Ok (Some o) -> args_ok ls rs s s2 o.
  Proof.
    induction ls as [|l ls IH]; intros rs s s2 o H;
      [cbn in H; injection H as <-; apply ao_end; now left|].
    destruct rs as [|r rs]; [cbn in H; injection H as <-; apply ao_end; now right|].
    cbn [unify_args] in H. destruct (is_anon l || is_anon r) eqn:E; [apply ao_skip; auto|].
    destruct (rec l r s) as [[s1|]| |] eqn:Er; cbn [bind] in H; try discriminate.
    eapply ao_step; eauto.
  Qed.

  Inductive lists_ok : term -> term -> subst -> subst -> Prop :=
  | lo_tails_anon h1 n1 c1 h2 n2 c2 s : is_anon h2 || is_anon h1 = true ->
      lists_ok (TList h1 n1 c1 true) (TList h2 n2 c2 true) s s
  | lo_tails h1 n1 c1 h2 n2 c2 s o : rec h1 h2 s = Ok (Some o) ->
      lists_ok (TList h1 n1 c1 true) (TList h2 n2 c2 true) s o
  | lo_tail_l h1 n1 c1 h2 n2 c2 s o : rec h1 (TList h2 n2 c2 false) s = Ok (Some o) ->
      lists_ok (TList h1 n1 c1 true) (TList h2 n2 c2 false) s o
  | lo_tail_r h1 n1 c1 h2 n2 c2 s o : rec h2 (TList h1 n1 c1 false) s = Ok (Some o) ->
      lists_ok (TList h1 n1 c1 false) (TList h2 n2 c2 true) s o
  | lo_empty n1 c1 n2 c2 s : lists_ok (TList TNil n1 c1 false) (TList TNil n2 c2 false) s s
  | lo_node h1 n1 c1 h2 n2 c2 s s1 o : rec h1 h2 s = Ok (Some s1) -> lists_ok n1 n2 s1 o ->
      lists_ok (TList h1 n1 c1 false) (TList h2 n2 c2 false) s o.

  Lemma unify_lists_ok : forall a b s o, unify_lists rec a b s = Ok (Some o) -> lists_ok a b s o.
  Proof.
    induction a as [| |x|x|x|x y|x|h1 _ n1 IH c1 tv1|x y]; intros b s o H;
      try (cbn [unify_lists is_nil orb] in H; destruct (is_nil b); discriminate).
    destruct b as [| | | | | | |h2 n2 c2 tv2|]; try discriminate. cbn [unify_lists is_nil orb] in H.
    destruct tv1, tv2; cbn [andb] in H.
    - destruct (is_anon h2) eqn:E2; [injection H as <-; apply lo_tails_anon; now rewrite E2|].
      destruct (is_anon h1) eqn:E1; [injection H as <-; apply lo_tails_anon; now rewrite E1, orb_true_r|].
      now apply lo_tails.
    - now apply lo_tail_l.
    - now apply lo_tail_r.
    - destruct (is_nil h1 && is_nil h2) eqn:En.
      + injection H as <-. apply andb_true_iff in En as [A B].
        destruct h1; try discriminate A. destruct h2; try discriminate B. apply lo_empty.
      + destruct (rec h1 h2 s) as [[s1|]| |] eqn:E; cbn [bind] in H; try discriminate.
        eapply lo_node; eauto.
  Qed.

  Inductive body_ok (f : nat) : term -> term -> subst -> subst -> Prop :=
  | bo_skip a b ss : term_eqb a b = true \/ is_anon b = true \/ a = TAnon -> body_ok f a b ss ss
  | bo_swap a b ss o : rec b a ss = Ok (Some o) -> body_ok f a b ss o
  | bo_bound id n u b ss o : ss_get ss id = Some u -> rec u b ss = Ok (Some o) ->
      body_ok f (TVar id n) b ss o
  | bo_alias id n b ss : chain_reaches f id b ss = Ok true -> body_ok f (TVar id n) b ss ss
  | bo_bind id n b ss : id <> 0 -> ss_get ss id = None -> is_anon b = false ->
      term_eqb (TVar id n) b = false -> chain_reaches f id b ss = Ok false ->
      body_ok f (TVar id n) b ss (ss_set ss id b)
  | bo_complex ls rs ss o : length ls = length rs -> args_ok ls rs ss [] o ->
      body_ok f (TComplex ls) (TComplex rs) ss o
  | bo_list h1 n1 c1 v1 h2 n2 c2 v2 ss o : lists_ok (TList h1 n1 c1 v1) (TList h2 n2 c2 v2) ss o ->
      body_ok f (TList h1 n1 c1 v1) (TList h2 n2 c2 v2) ss o
  | bo_fun name args v b ss o : eval_function f name args ss = Ok (Some v) ->
      rec v b ss = Ok (Some o) -> body_ok f (TFun name args) b ss o.

  Lemma unify_body_ok f a b ss o : unify_body rec f a b ss = Ok (Some o) -> body_ok f a b ss o.
  Proof.
    intro H0. pose proof H0 as H. unfold unify_body in H.
    destruct (term_eqb a b) eqn:Eab; [injection H as <-; apply bo_skip; auto|].
    destruct (is_anon b) eqn:Eanon; [injection H as <-; apply bo_skip; auto|].
    destruct a as [| |s1|f1|i1|id n|ls|th tnx c tv|name args]; try discriminate.
    (* a constant that differs from b unifies with no constant *)
    2-4: destruct b; try discriminate; try (apply bo_swap; exact H);
      cbn [term_eqb] in Eab; rewrite Eab in H; discriminate.
    - injection H as <-. apply bo_skip; auto.
    - destruct (N.eqb_spec id 0) as [|Hid]; [discriminate|].
      destruct (match b with TFun _ _ => true | _ => false end) eqn:Ef;
        [destruct b; try discriminate Ef; apply bo_swap; exact H|].
      rewrite body_var in H0 by (try assumption; intros ? ? ->; discriminate Ef).
      clear H. rename H0 into H'. apply N.eqb_neq in Hid as E0. rewrite E0 in H'. destruct (ss_get ss id) as [u|] eqn:Eg; [eapply bo_bound; eauto|].
      destruct (chain_reaches f id b ss) as [[|]| |] eqn:Ec; cbn [bind] in H'; try discriminate;
        injection H' as <-; [now apply bo_alias|now apply bo_bind].
    - destruct b as [| | | | | |rs| |]; try discriminate; try (apply bo_swap; exact H).
      destruct (Nat.eqb_spec (length ls) (length rs)) as [El|]; [|discriminate].
      apply bo_complex; [exact El|apply unify_args_ok, H].
    - destruct b; try discriminate; try (apply bo_swap; exact H).
      apply bo_list, unify_lists_ok, H.
    - destruct (eval_function f name args ss) as [[v|]| |] eqn:Ev; cbn [bind] in H; try discriminate.
      eapply bo_fun; eauto.
  Qed.
End Shape.

Lemma unify_ok_ind (P : term -> term -> subst -> subst -> Prop) :
  (forall f, (forall a b ss o, unify f a b ss = Ok (Some o) -> P a b ss o) ->
     forall a b ss o, body_ok (unify f) f a b ss o -> P a b ss o) ->
  forall fuel a b ss o, unify fuel a b ss = Ok (Some o) -> P a b ss o.
Proof.
  intro step. induction fuel as [|f IH]; intros a b ss o H; [discriminate|].
  exact (step f IH a b ss o (unify_body_ok _ _ _ _ _ _ H)).
Qed.

(* `Q` holds of operands, `Qc` of list nodes met in `next` position (where alone a tail node may
   stand); both are inherited by the parts that unify looks at.  A `Q` that rejects the Nil marker
   can still admit the empty list, whose head and `next` are the marker: there the loop stops. *)
Record parts_closed (Q Qc : term -> Prop) : Prop := {
  pc_complex : forall ts, Q (TComplex ts) -> Forall Q ts;
  pc_list : forall h nx c tv, Q (TList h nx c tv) -> Qc (TList h nx c tv);
  pc_tail : forall h nx c, Qc (TList h nx c true) -> Q h;
  pc_node : forall h nx c, Qc (TList h nx c false) ->
    Q (TList h nx c false) /\ (is_nil h = true /\ is_nil nx = true \/ Q h /\ Qc nx);
  pc_fun : forall name args v, Q (TFun name args) -> is_constant v = true -> Q v }.

Section Invariant.
  Variables Q Qc : term -> Prop.
  Hypothesis HQ : parts_closed Q Qc.
  Variable R : subst -> subst -> Prop.
  Hypothesis R_refl : forall s, R s s.
  Hypothesis R_trans : forall a b c, R a b -> R b c -> R a c.
  (* one binding step, with everything the code has established at that point *)
  Hypothesis R_bind : forall f ss id name other,
    id <> 0 -> ss_get ss id = None -> is_anon other = false ->
    term_eqb (TVar id name) other = false ->
    chain_reaches f id other ss = Ok false ->
    Q (TVar id name) -> Q other -> ss_all Q ss ->
    R ss (ss_set ss id other).
  (* the argument loop of a complex term starts from the EMPTY set and returns it when every pair
     is skipped: harmless only if functors are atoms (the first pair is then unified), or if R
     does not mind *)
  Hypothesis R_reset :
    (forall ts, Q (TComplex ts) -> exists s rest, ts = TAtom s :: rest) \/ (forall s, R s []).

  Definition good (rec : term -> term -> subst -> res (option subst)) : Prop :=
    forall a b ss o, rec a b ss = Ok (Some o) -> Q a -> Q b -> ss_all Q ss -> R ss o /\ ss_all Q o.

  Section Body.
    Variable rec : term -> term -> subst -> res (option subst).
    Hypothesis Hrec : good rec.

    Lemma args_inv ls rs s s2 o : args_ok rec ls rs s s2 o ->
      Forall Q ls -> Forall Q rs -> ss_all Q s -> R s s2 -> ss_all Q s2 -> R s o /\ ss_all Q o.
    Proof.
      induction 1 as [|l r ls rs s s2 o _ _ IH|l r ls rs s s2 s1 o _ E _ IH]; intros Hl Hr Hs HR H2.
      - auto.
      - inversion Hl; inversion Hr; auto.
      - inversion Hl; inversion Hr; subst. destruct (Hrec _ _ _ _ E) as [R1 Q1]; auto.
        destruct IH; eauto.
    Qed.

    Lemma lists_inv a b s o : lists_ok rec a b s o -> Qc a -> Qc b -> ss_all Q s -> R s o /\ ss_all Q o.
    Proof.
      induction 1 as [|h1 n1 c1 h2 n2 c2 s o E|h1 n1 c1 h2 n2 c2 s o E|h1 n1 c1 h2 n2 c2 s o E|
                      |h1 n1 c1 h2 n2 c2 s s1 o E Hl IH]; intros Ha Hb Hs; auto.
      - exact (Hrec _ _ _ _ E (pc_tail _ _ HQ _ _ _ Ha) (pc_tail _ _ HQ _ _ _ Hb) Hs).
      - exact (Hrec _ _ _ _ E (pc_tail _ _ HQ _ _ _ Ha) (proj1 (pc_node _ _ HQ _ _ _ Hb)) Hs).
      - exact (Hrec _ _ _ _ E (pc_tail _ _ HQ _ _ _ Hb) (proj1 (pc_node _ _ HQ _ _ _ Ha)) Hs).
      - (* a node whose head is the Nil marker while the other list goes on: the loop fails *)
        destruct (pc_node _ _ HQ _ _ _ Ha) as [_ [[_ N]|[A1 A2]]];
          [destruct n1; try discriminate N; inversion Hl|].
        destruct (pc_node _ _ HQ _ _ _ Hb) as [_ [[_ N]|[B1 B2]]];
          [destruct n2; try discriminate N; inversion Hl|].
        destruct (Hrec _ _ _ _ E) as [R1 Q1]; auto. destruct IH; eauto.
    Qed.

    Lemma body_inv f a b ss o : body_ok rec f a b ss o -> Q a -> Q b -> ss_all Q ss -> R ss o /\ ss_all Q o.
    Proof.
      destruct 1 as [a b ss _|a b ss o E|id n u b ss o Eg E|id n b ss _|id n b ss Hid Hn Han He Hc
                    |ls rs ss o _ Hargs|h1 n1 c1 v1 h2 n2 c2 v2 ss o Hl|name args v b ss o Ev E];
        intros Ha Hb Hs.
      - auto.
      - exact (Hrec _ _ _ _ E Hb Ha Hs).
      - exact (Hrec _ _ _ _ E (Hs _ _ Eg) Hb Hs).
      - auto.
      - split; [eapply R_bind; eauto|now apply ss_all_set].
      - pose proof (pc_complex _ _ HQ _ Ha) as Fl. pose proof (pc_complex _ _ HQ _ Hb) as Fr.
        destruct R_reset as [Hat|Hre]; [|eapply args_inv; eauto using ss_all_nil].
        destruct (Hat _ Ha) as (sa & ls' & ->). destruct (Hat _ Hb) as (sb & rs' & ->).
        inversion Hargs as [? ? ? ? [N|N]| |? ? ? ? ? ? s1 ? _ E Hrest]; subst; try discriminate.
        inversion Fl; inversion Fr; subst. destruct (Hrec _ _ _ _ E) as [R1 Q1]; auto.
        destruct (args_inv _ _ _ _ _ Hrest); eauto.
      - exact (lists_inv _ _ _ _ Hl (pc_list _ _ HQ _ _ _ _ Ha) (pc_list _ _ HQ _ _ _ _ Hb) Hs).
      - exact (Hrec _ _ _ _ E (pc_fun _ _ HQ _ _ _ Ha (eval_function_constant _ _ _ _ _ Ev)) Hb Hs).
    Qed.
  End Body.

  Theorem unify_inv fuel a b ss o : unify fuel a b ss = Ok (Some o) ->
    Q a -> Q b -> ss_all Q ss -> R ss o /\ ss_all Q o.
  Proof.
    revert fuel a b ss o.
    apply (unify_ok_ind (fun a b ss o => Q a -> Q b -> ss_all Q ss -> R ss o /\ ss_all Q o)).
    intros f IH a b ss o. now apply body_inv.
  Qed.
End Invariant.

Lemma wf_parts : parts_closed (fun t => wf_term t = true) (fun t => wf_term t = true).
Proof.
  split.
  - intros [|f rest] H; [discriminate H|]. apply wf_complex_inv in H as [[s ->] H].
    constructor; [reflexivity|]. apply Forall_forall. now rewrite forallb_forall in H.
  - auto.
  - intros h nx c H. now apply andb_true_iff in H as [H _].
  - intros h nx c H. split; [exact H|]. right. now apply andb_true_iff in H.
  - intros name args v _ Hv. destruct v; try discriminate; reflexivity.
Qed.

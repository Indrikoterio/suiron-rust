(* C19 at term level, part 1: the leaves.  Printing an atom (`wide_atom`: `[A-Za-z0-9_]` at both
   ends, identifier characters and blanks between, not all digits; the atoms `[a-z][A-Za-z0-9_]*`
   are among them), a variable `$[A-Za-z][A-Za-z0-9_]*` (id 0), the anonymous variable `$_` or a
   64-bit integer and parsing the text gives the term back.  Also: the character classes and
   `opfree`, the condition under which the scan for an arithmetic infix finds nothing, which
   the composite cases use (Proofs/TermRoundtripText.v, TermRoundtripComplex.v).

   The character classes of the round-trip files (each a `N -> bool`; A < B: A c = true -> B c = true):
     is_digit < ident_char        ident_char = [A-Za-z0-9_]                       (here)
     is_lower < ident_char        numch = digits and `-`   (Proofs/ParseRoundtrip.v)
     ident_char < wchar           wchar = ident_char, `$`, `-`: the leaf texts    (ident_wchar)
     ident_char < achar           achar = ident_char and the blank: wide atoms
     wchar, achar < pchar         pchar = wchar and the blank       (TermRoundtripText: wchar_pchar, achar_pchar)
     pchar < tchar                tchar = pchar and `, | ( ) [ ]`: every printed text      (pchar_tchar)
   A member of a class differs from every character outside it (`class_neq`, ParseRoundtrip.v); that
   is how the tests `c =? c_x` of the parsers are decided.  The tokenizer side continues the
   table in Proofs/GoalLeafText.v (tchar < nosp; wchar, achar < ochar < schar). *)
From Coq Require Import Lia String.
From Suiron Require Import Model.ParseTerm Model.Show Proofs.ParseTermProofs Proofs.ParseRoundtrip.
Open Scope N_scope.

Definition is_lower (c : N) : bool := in_range 97 122 c.
Definition is_upper (c : N) : bool := in_range 65 90 c.
Definition ident_char (c : N) : bool := is_lower c || is_upper c || is_digit c || (c =? 95).

(* an atom `[a-z][A-Za-z0-9_]*` *)
Definition simple_atom (s : str) : bool :=
  match s with
  | c :: r => is_lower c && forallb ident_char r
  | [] => false
  end.

(* a variable name `$[A-Za-z][A-Za-z0-9_]*` *)
Definition simple_var (s : str) : bool :=
  match s with
  | d :: c :: r => (d =? c_dollar) && (is_lower c || is_upper c) && forallb ident_char r
  | _ => false
  end.

(* the characters of the leaf texts: identifier characters, `$`, `-` *)
Definition wchar (c : N) : bool := ident_char c || (c =? c_dollar) || (c =? c_minus).

Lemma in_range_spec lo hi c : in_range lo hi c = true <-> lo <= c <= hi.
Proof.
  unfold in_range. rewrite andb_true_iff, !N.leb_le. tauto.
Qed.

Lemma ident_char_range c : ident_char c = true ->
  48 <= c <= 57 \/ 65 <= c <= 90 \/ c = 95 \/ 97 <= c <= 122.
Proof.
  unfold ident_char, is_lower, is_upper, is_digit. intros H.
  apply orb_true_iff in H as [H|H]; [|apply N.eqb_eq in H; lia].
  apply orb_true_iff in H as [H|H]; [|apply in_range_spec in H; lia].
  apply orb_true_iff in H as [H|H]; apply in_range_spec in H; lia.
Qed.

Lemma wchar_range c : wchar c = true ->
  c = 36 \/ c = 45 \/ 48 <= c <= 57 \/ 65 <= c <= 90 \/ c = 95 \/ 97 <= c <= 122.
Proof.
  unfold wchar. intros H.
  apply orb_true_iff in H as [H|H]; [|apply N.eqb_eq in H; unfold c_minus in H; lia].
  apply orb_true_iff in H as [H|H]; [|apply N.eqb_eq in H; unfold c_dollar in H; lia].
  apply ident_char_range in H. lia.
Qed.

Lemma ident_wchar c : ident_char c = true -> wchar c = true.
Proof. intros H. unfold wchar. now rewrite H. Qed.

Lemma lower_ident c : is_lower c = true -> ident_char c = true.
Proof. intros H. unfold ident_char. now rewrite H. Qed.

Lemma digit_ident c : is_digit c = true -> ident_char c = true.
Proof. intros H. unfold ident_char. rewrite H. now rewrite orb_true_r. Qed.

(* `opfree prev s`: no `+`, `*`, `/` in s and no `-` directly before a blank (prev is the character
   before s).  Then check_arithmetic_infix finds nothing, whatever its state. *)
Fixpoint opfree (prev : N) (s : str) : bool :=
  match s with
  | [] => true
  | c :: tl =>
      negb (c =? c_plus) && negb (c =? c_star) && negb (c =? c_slash) &&
      negb ((prev =? c_minus) && (c =? 32)) && opfree c tl
  end.

Lemma opfree_app a : forall p b, opfree p (a ++ b) = opfree p a && opfree (last a p) b.
Proof.
  induction a as [|c a IH]; intros p b; [reflexivity|].
  cbn [app opfree]. rewrite IH, (last_app_any [c] a p : last (c :: a) p = last a c).
  now rewrite !andb_assoc.
Qed.

Lemma cai_loop_opfree s : forall p i prev skip,
  opfree p s = true -> cai_loop s i prev skip = (INone, O).
Proof.
  induction s as [|c1 tl IH]; intros p i prev skip H; [reflexivity|].
  cbn [opfree] in H.
  apply andb_true_iff in H as [H Htl]. apply andb_true_iff in H as [H _].
  apply andb_true_iff in H as [H H3]. apply andb_true_iff in H as [H1 H2].
  apply negb_true_iff in H1, H2, H3.
  cbn [cai_loop].
  destruct skip as [[close open]|].
  { destruct (c1 =? close); eapply IH; exact Htl. }
  destruct (c1 =? c_dquote).
  { destruct (has_char c_dquote tl); eapply IH; exact Htl. }
  destruct (c1 =? c_lpar).
  { destruct (has_char c_rpar tl); eapply IH; exact Htl. }
  destruct (negb (prev =? 32)); [eapply IH; exact Htl|].
  rewrite H1, H2, H3.
  destruct (c1 =? c_minus) eqn:Em; [|eapply IH; exact Htl].
  destruct tl as [|c2 tl2]; [reflexivity|].
  assert (E : (c2 =? 32) = false).
  { cbn [opfree] in Htl. apply andb_true_iff in Htl as [Htl _]. apply andb_true_iff in Htl as [_ Htl].
    rewrite Em in Htl. cbn [andb] in Htl. now apply negb_true_iff in Htl. }
  rewrite E. eapply IH; exact Htl.
Qed.

Lemma no_arith_infix_opfree s : trim s = s -> opfree 0 s = true -> no_arith_infix s = true.
Proof.
  intros Ht H. unfold no_arith_infix, check_arithmetic_infix. rewrite Ht.
  now rewrite (cai_loop_opfree s 0 0%nat c_hash None H).
Qed.

Lemma opfree_wchars s : forall p, Forall (fun c => wchar c = true) s -> opfree p s = true.
Proof.
  induction s as [|c tl IH]; intros p H; [reflexivity|].
  inversion H as [|x l Hc Htl]; subst. cbn [opfree]. rewrite (IH c Htl).
  rewrite !(class_neq wchar c _ Hc) by reflexivity. now rewrite andb_false_r.
Qed.

Lemma wchar_not_white c : wchar c = true -> is_white c = false.
Proof. intros H. apply wchar_range in H. apply printable_not_white. lia. Qed.

(* words, the texts of the leaves: not empty, made of wchars, not ending in `-` *)
Definition word (w : str) : Prop :=
  w <> [] /\ Forall (fun c => wchar c = true) w /\ last w 0 <> c_minus.

Lemma Forall_last {A} (P : A -> Prop) l d : l <> [] -> Forall P l -> P (last l d).
Proof.
  induction l as [|x l IH]; intros Hne H; [now elim Hne|].
  inversion H as [|y l' Hx Hl]; subst. destruct l as [|z l]; [exact Hx|].
  change (P (last (z :: l) d)). apply IH; [discriminate|exact Hl].
Qed.

Lemma word_hd w : word w -> wchar (hd 0 w) = true.
Proof. intros (Hne & Hall & _). destruct w; [now elim Hne|]. now inversion Hall. Qed.

Lemma word_last w : word w -> wchar (last w 0) = true.
Proof. intros (Hne & Hall & _). now apply (Forall_last (fun c => wchar c = true)). Qed.

Lemma word_trimmed w : word w -> trim w = w.
Proof.
  intros Hw. apply trimmed_trim. right. split; apply wchar_not_white.
  - now apply word_hd.
  - now apply word_last.
Qed.

Lemma word_no_arith w : word w -> no_arith_infix w = true.
Proof.
  intros Hw. apply no_arith_infix_opfree; [now apply word_trimmed|].
  apply opfree_wchars. apply Hw.
Qed.

Lemma parse_term_word fuel w : word w ->
  parse_term (S fuel) w = make_term (parse_term fuel) (parse_arguments fuel) w.
Proof.
  intros Hw. cbn [parse_term]. rewrite parse_term_body_plain.
  - apply make_term_trim.
  - now apply word_no_arith.
  - intros tl E. rewrite word_trimmed in E by exact Hw.
    pose proof (word_hd w Hw) as Hh. rewrite E in Hh. discriminate Hh.
Qed.

Lemma ident_word s : s <> [] -> Forall (fun c => ident_char c = true) s -> word s.
Proof.
  intros Hne Hall. split; [exact Hne|]. split.
  - eapply Forall_impl; [|exact Hall]. exact ident_wchar.
  - pose proof (Forall_last _ s 0 Hne Hall) as Hl. cbv beta in Hl.
    intros E. rewrite E in Hl. discriminate Hl.
Qed.

Lemma simple_atom_word s : simple_atom s = true -> word s.
Proof.
  destruct s as [|c r]; [discriminate|]. cbn [simple_atom]. intros H.
  apply andb_true_iff in H as [Hc Hr]. apply ident_word; [discriminate|].
  constructor; [now apply lower_ident|now apply Forall_forall, forallb_forall].
Qed.

Lemma simple_var_word s : simple_var s = true -> word s.
Proof.
  destruct s as [|d [|c r]]; try discriminate. cbn [simple_var]. intros H.
  apply andb_true_iff in H as [H Hr]. apply andb_true_iff in H as [Hd Hc].
  apply N.eqb_eq in Hd. subst d.
  assert (Hw : word (c :: r)).
  { apply ident_word; [discriminate|]. constructor; [|now apply Forall_forall, forallb_forall].
    unfold ident_char. apply orb_true_iff in Hc as [Hc|Hc]; rewrite Hc; [reflexivity|].
    now rewrite orb_true_r. }
  destruct Hw as (_ & Hall & Hl). split; [discriminate|]. split; [now constructor|exact Hl].
Qed.

Lemma show_Z_word z : word (show_Z z).
Proof.
  destruct (show_Z_numch z) as (Hall & Hne & Hlast & _).
  split; [exact Hne|]. split.
  - eapply Forall_impl; [|exact Hall]. intros c Hc. apply orb_true_iff in Hc as [Hc|Hc].
    + now apply ident_wchar, digit_ident.
    + unfold wchar. now rewrite Hc, orb_true_r.
  - intros E. rewrite E in Hlast. discriminate Hlast.
Qed.

Lemma classify_loop_hnd s : forall i hd hp, exists hd' hp', classify_loop s i hd true hp = (hd', true, hp').
Proof.
  induction s as [|c r IH]; intros i hd hp; cbn [classify_loop]; [eauto|].
  destruct (is_digit c); [apply IH|]. destruct (c =? c_period); [apply IH|].
  destruct ((i =? 0)%nat && ((c =? c_plus) || (c =? c_minus))); apply IH.
Qed.

Lemma lower_not_digit c : is_lower c = true -> is_digit c = false.
Proof.
  intros Hc. apply in_range_spec in Hc. unfold is_digit.
  destruct (in_range 48 57 c) eqn:E; [|reflexivity]. apply in_range_spec in E. lia.
Qed.

Lemma lower_upper_alphabetic c : is_lower c || is_upper c = true -> is_alphabetic c = true.
Proof.
  intros H. unfold is_alphabetic. change 0x41 with 65. change 0x5A with 90.
  change 0x61 with 97. change 0x7A with 122. fold (is_upper c). fold (is_lower c).
  rewrite (orb_comm (is_upper c)). rewrite H. reflexivity.
Qed.

Theorem parse_term_show_var : forall fuel name,
  simple_var name = true -> parse_term (S fuel) (show_term (TVar 0 name)) = Ok (POk (TVar 0 name)).
Proof.
  intros fuel s Hs. cbn [show_term]. change (0 =? 0) with true. cbv iota.
  pose proof (simple_var_word s Hs) as Hw.
  rewrite parse_term_word by exact Hw.
  unfold make_term, make_logic_var. rewrite !word_trimmed by exact Hw.
  destruct (classify_term s) as [[hd hnd] hp].
  destruct s as [|d [|c r]]; try discriminate.
  cbn [simple_var] in Hs.
  apply andb_true_iff in Hs as [Hs _]. apply andb_true_iff in Hs as [Hd Hc].
  rewrite Hd. cbn [negb].
  assert (E : str_eqb (d :: c :: r) (s2l "$_") = false).
  { change (s2l "$_") with [c_dollar; 95]. cbn [str_eqb]. rewrite Hd. cbn [andb].
    now rewrite (class_neq (fun c => is_lower c || is_upper c) c 95 Hc). }
  rewrite E. rewrite (lower_upper_alphabetic c Hc). reflexivity.
Qed.

Theorem parse_term_show_anon : forall fuel,
  parse_term (S fuel) (show_term TAnon) = Ok (POk TAnon).
Proof. intros fuel. vm_compute. reflexivity. Qed.

Theorem parse_term_show_int' : forall fuel z,
  i64_range z -> parse_term (S fuel) (show_term (TInt z)) = Ok (POk (TInt z)).
Proof. exact parse_term_show_int. Qed.

(* a variable whose name is not of this form does not come back: `$_` as a named variable is
   read as the anonymous variable, `$1` as an atom *)
Example var_underscore_not_canonical :
  parse_term 5 (show_term (TVar 0 (s2l "$_"))) = Ok (POk TAnon).
Proof. vm_compute. reflexivity. Qed.
Example var_digit_not_canonical :
  parse_term 5 (show_term (TVar 0 (s2l "$1"))) = Ok (POk (TAtom (s2l "$1"))).
Proof. vm_compute. reflexivity. Qed.

(* wider atoms: `[A-Za-z0-9_]` at both ends, identifier characters and blanks between, not all digits (a text
   of digits only is a number).  Capitalised atoms (`Abc`, `Nil`), atoms that start with a digit
   or `_` (`1a`, `_x`) and atoms of several words (`New York`) are of this kind. *)
Definition achar (c : N) : bool := ident_char c || (c =? 32).

Definition wide_atom (s : str) : bool :=
  match s with
  | c :: r => ident_char c && forallb achar r && ident_char (last s 0) && negb (forallb is_digit s)
  | [] => false
  end.

Lemma wide_atom_facts s : wide_atom s = true ->
  s <> [] /\ ident_char (hd 0 s) = true /\ Forall (fun c => achar c = true) s /\
  ident_char (last s 0) = true /\ forallb is_digit s = false.
Proof.
  destruct s as [|c r]; [discriminate|]. cbn [wide_atom]. intros H.
  apply andb_true_iff in H as [H Hd]. apply andb_true_iff in H as [H Hl].
  apply andb_true_iff in H as [Hc Hr]. apply negb_true_iff in Hd. rewrite forallb_forall, <- Forall_forall in Hr.
  split; [discriminate|]. split; [exact Hc|]. split; [|split; assumption].
  constructor; [|exact Hr]. unfold achar. now rewrite Hc.
Qed.

Lemma simple_atom_wide s : simple_atom s = true -> wide_atom s = true.
Proof.
  intros Hs. pose proof (simple_atom_word s Hs) as Hw.
  destruct s as [|c r]; [discriminate|]. cbn [simple_atom] in Hs.
  apply andb_true_iff in Hs as [Hc Hr]. cbn [wide_atom].
  assert (Hall : Forall (fun c => ident_char c = true) (c :: r)).
  { constructor; [now apply lower_ident|now apply Forall_forall, forallb_forall]. }
  rewrite (lower_ident c Hc).
  assert (Hr' : forallb achar r = true).
  { apply forallb_forall. intros x Hx. rewrite forallb_forall in Hr. unfold achar. now rewrite (Hr x Hx). }
  rewrite Hr'.
  pose proof (Forall_last _ (c :: r) 0 ltac:(discriminate) Hall) as Hl. cbv beta in Hl. rewrite Hl.
  cbn [forallb andb negb].
  now rewrite (lower_not_digit c Hc).
Qed.

Lemma opfree_achars s : Forall (fun c => achar c = true) s -> forall p, (p =? c_minus) = false -> opfree p s = true.
Proof.
  induction s as [|c tl IH]; intros H p Hp; [reflexivity|].
  inversion H as [|x l Hc Htl]; subst. cbn [opfree].
  rewrite !(class_neq achar c _ Hc), Hp by reflexivity. cbn [negb andb].
  apply IH; [exact Htl|now apply (class_neq achar)].
Qed.

Lemma opfree_wide s : wide_atom s = true -> forall p, opfree p s = true.
Proof.
  intros H p. destruct (wide_atom_facts s H) as (Hne & Hh & Hall & _).
  destruct s as [|c r]; [now elim Hne|]. cbn [hd] in Hh. inversion Hall as [|x l _ Hr]; subst.
  cbn [opfree]. rewrite !(class_neq ident_char c _ Hh) by reflexivity.
  rewrite andb_false_r. cbn [negb andb]. apply opfree_achars; [exact Hr|now apply (class_neq ident_char)].
Qed.

Lemma wide_atom_trimmed s : wide_atom s = true -> trim s = s.
Proof.
  intros H. destruct (wide_atom_facts s H) as (_ & Hh & _ & Hl & _).
  apply trimmed_trim. right. split; apply wchar_not_white; now apply ident_wchar.
Qed.

Lemma classify_loop_nondigit s : Forall (fun c => achar c = true) s -> forall i hd hnd hp,
  hnd = true \/ forallb is_digit s = false ->
  exists hd' hp', classify_loop s i hd hnd hp = (hd', true, hp').
Proof.
  induction s as [|c r IH]; intros H i hd hnd hp Hor.
  - destruct Hor as [->|Hor]; [cbn; eauto|discriminate].
  - inversion H as [|x l Hc Hr]; subst. cbn [classify_loop]. cbn [forallb] in Hor.
    destruct (is_digit c) eqn:Ed.
    + apply IH; [exact Hr|]. destruct Hor as [Hor|Hor]; [now left|now right].
    + rewrite !(class_neq achar c _ Hc) by reflexivity.
      cbn [orb]. rewrite andb_false_r. apply classify_loop_hnd.
Qed.

Theorem parse_term_show_wide_atom : forall fuel s,
  wide_atom s = true -> parse_term (S fuel) (show_term (TAtom s)) = Ok (POk (TAtom s)).
Proof.
  intros fuel s Hs. cbn [show_term].
  destruct (wide_atom_facts s Hs) as (Hne & Hh & Hall & Hl & Hd).
  pose proof (wide_atom_trimmed s Hs) as Ht.
  cbn [parse_term]. rewrite parse_term_body_plain.
  2:{ apply no_arith_infix_opfree; [exact Ht|now apply opfree_wide]. }
  2:{ intros tl E. rewrite Ht in E. rewrite E in Hh. discriminate Hh. }
  unfold make_term. rewrite !trim_idem, Ht.
  destruct (classify_loop_nondigit s Hall 0%nat false false false (or_intror Hd)) as (hd' & hp' & Hcl).
  unfold classify_term. rewrite Hcl.
  destruct s as [|c r] eqn:Es; [now elim Hne|]. rewrite <- Es in Hl |- *. cbn [hd] in Hh.
  rewrite !(class_neq ident_char c _ Hh), (class_neq ident_char _ c_rpar Hl) by reflexivity.
  cbn [negb andb]. rewrite !andb_false_r.
  destruct (2 <=? length s)%nat; reflexivity.
Qed.

Theorem parse_term_show_atom : forall fuel s,
  simple_atom s = true -> parse_term (S fuel) (show_term (TAtom s)) = Ok (POk (TAtom s)).
Proof. intros fuel s Hs. apply parse_term_show_wide_atom. now apply simple_atom_wide. Qed.

(* a text of digits only is a number, not an atom *)
Example digits_atom_not_read_back :
  parse_term 5 (show_term (TAtom (s2l "123"))) = Ok (POk (TInt 123)).
Proof. vm_compute. reflexivity. Qed.

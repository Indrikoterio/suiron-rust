(* An executable test for the class `canonical` of Proofs/TermRoundtripMain.v: if
   canonicalb t = true then t is canonical, hence printing and parsing gives t back. *)
From Coq Require Import Lia String.
From Suiron Require Import Model.ParseTerm Model.Show Spec.SpecLists Proofs.ListProofs.
From Suiron Require Import Proofs.ParseTermProofs Proofs.ParseRoundtrip.
From Suiron Require Import Proofs.TermRoundtrip Proofs.TermRoundtripText Proofs.TermRoundtripComplex Proofs.TermRoundtripMain.
Open Scope N_scope.

Definition tail_nodeb (n : term) : bool :=
  match n with
  | TList (TVar id name) nx c true => (id =? 0) && simple_var name && is_empty_list nx && (c =? 1)
  | TList TAnon nx c true => is_empty_list nx && (c =? 1)
  | _ => false
  end.

Fixpoint canonicalb (t : term) : bool :=
  match t with
  | TAtom s => wide_atom s
  | TInt z => ((- 2 ^ 63 <=? z) && (z <? 2 ^ 63))%Z
  | TVar id name => (id =? 0) && simple_var name
  | TAnon => true
  | TComplex (TAtom f :: ts) =>
      functor_name f && forallb canonicalb ts && (length (show_term t) <=? 1000)%nat
  | TList x nx c tv =>
      if is_nil x then is_nil nx && (c =? 0) && negb tv
      else
        negb tv && canonicalb x && (c =? node_count nx + 1) &&
        (tail_nodeb nx || (is_list nx && canonicalb nx))
  | _ => false
  end.

(* the tails of canonical lists *)
Definition can_tail (v : term) : Prop :=
  v = TAnon \/ exists name, v = TVar 0 name /\ simple_var name = true.

Lemma tail_nodeb_spec n : tail_nodeb n = true ->
  exists v, can_tail v /\ elems n = Some ([], Some v).
Proof.
  destruct n as [| | | | | | |x nx c tv|]; try discriminate. cbn [tail_nodeb].
  destruct x as [| | | | |id name| | |]; try discriminate; (destruct tv; [|discriminate]); intros H.
  - apply andb_true_iff in H as [He Hc]. exists TAnon. split; [now left|].
    cbn [elems is_nil]. now rewrite He, Hc.
  - apply andb_true_iff in H as [H Hc]. apply andb_true_iff in H as [H He].
    apply andb_true_iff in H as [Hid Hn]. apply N.eqb_eq in Hid. subst id.
    exists (TVar 0 name). split; [right; eauto|]. cbn [elems is_nil]. now rewrite He, Hc.
Qed.

Lemma can_list_with_tail l ts v :
  elems l = Some (ts, Some v) -> ts <> [] -> (forall t, In t ts -> canonical t) -> can_tail v ->
  canonical l.
Proof.
  intros He Hne Hts [->|(name & -> & Hn)].
  - now apply (can_list_anon l ts).
  - now apply (can_list_tail l ts name).
Qed.

(* a canonical list node has a view *)
Lemma canonical_list_view l : canonical l -> is_list l = true ->
  exists ts tl, elems l = Some (ts, tl) /\ (forall t, In t ts -> canonical t) /\
    (tl = None \/ exists v, tl = Some v /\ ts <> [] /\ can_tail v).
Proof.
  intros H Hl.
  inversion H as [s Hs|z Hz|name Hn| |f ts Hf Hts Hlen|l0 ts He Hts|l0 ts name He Hne Hts Hn
                  |l0 ts He Hne Hts];
    subst; try discriminate.
  - exists ts, None. auto.
  - exists ts, (Some (TVar 0 name)). split; [exact He|]. split; [exact Hts|]. right.
    exists (TVar 0 name). split; [reflexivity|]. split; [exact Hne|]. right. eauto.
  - exists ts, (Some TAnon). split; [exact He|]. split; [exact Hts|]. right.
    exists TAnon. split; [reflexivity|]. split; [exact Hne|]. now left.
Qed.

Theorem canonicalb_sound : forall t, canonicalb t = true -> canonical t.
Proof.
  induction t as [| |s|f|z|id name|ts IH|x nx c tv IHx IHnx|name args _] using term_ind';
    intros H; cbn [canonicalb] in H; try discriminate.
  - apply can_anon.
  - now apply can_atom.
  - apply can_int. apply andb_true_iff in H as [H1 H2]. apply Z.leb_le in H1. apply Z.ltb_lt in H2.
    split; assumption.
  - apply andb_true_iff in H as [Hid Hn]. apply N.eqb_eq in Hid. subst id. now apply can_var.
  - destruct ts as [|[| |f| | | | | |] ts']; try discriminate.
    apply andb_true_iff in H as [H Hlen]. apply andb_true_iff in H as [Hf Hts].
    apply can_complex; [exact Hf|clear Hlen|now apply Nat.leb_le].
    inversion IH as [|y l _ IHts]; subst.
    intros t Ht. rewrite forallb_forall in Hts. rewrite Forall_forall in IHts.
    apply (IHts t Ht). now apply Hts.
  - destruct (is_nil x) eqn:Ex.
    + apply (can_list _ []); [|intros t []]. cbn [elems]. now rewrite Ex, H.
    + apply andb_true_iff in H as [H Hnx]. apply andb_true_iff in H as [H Hc].
      apply andb_true_iff in H as [Htv Hx]. apply negb_true_iff in Htv. subst tv.
      specialize (IHx Hx).
      apply orb_true_iff in Hnx as [Hnx|Hnx].
      * destruct (tail_nodeb_spec nx Hnx) as (v & Hv & He).
        apply (can_list_with_tail _ [x] v); [|discriminate| |exact Hv].
        -- cbn [elems]. now rewrite Ex, He, Hc.
        -- intros t [<-|[]]. exact IHx.
      * apply andb_true_iff in Hnx as [Hl Hcn]. specialize (IHnx Hcn).
        destruct (canonical_list_view nx IHnx Hl) as (ts & tl & He & Hts & Htl).
        assert (Hts' : forall t, In t (x :: ts) -> canonical t).
        { intros t [<-|Ht]; [exact IHx|now apply Hts]. }
        assert (He' : elems (TList x nx c false) = Some (x :: ts, tl)).
        { cbn [elems]. now rewrite Ex, He, Hc. }
        destruct Htl as [->|(v & -> & Hne & Hv)].
        -- now apply (can_list _ (x :: ts)).
        -- apply (can_list_with_tail _ (x :: ts) v); [exact He'|discriminate|exact Hts'|exact Hv].
Qed.

Corollary canonicalb_roundtrip : forall t fuel,
  canonicalb t = true -> (parse_fuel (show_term t) <= fuel)%nat ->
  parse_term fuel (show_term t) = Ok (POk t).
Proof. intros t fuel H. apply parse_term_show_canonical. now apply canonicalb_sound. Qed.

(* the test accepts what the constructors build *)
Example canonicalb_example :
  canonicalb (TComplex [TAtom [102];
                TComplex [TAtom [103]; TAtom [97]; TVar 0 (s2l "$X")];
                make_linked_list true [TInt 1; TInt (-2); TVar 0 (s2l "$T")];
                make_linked_list false [TAtom [97]; make_list_of_terms []; TAtom [98]];
                make_list_of_terms [];
                make_linked_list true [TAtom [97]; TAnon];
                TAnon]) = true.
Proof. vm_compute. reflexivity. Qed.

(* and rejects the terms that are not read back *)
Example canonicalb_rejects :
  map canonicalb
    [TVar 0 (s2l "$_"); TVar 1 (s2l "$X"); TNil; TComplex [];
     TComplex [TAtom (s2l "add"); TInt 1; TInt 2];
     make_linked_list true [TVar 0 (s2l "$T")];
     TList (TAtom [97]) empty_list 5 false] =
  [false; false; false; false; false; false; false].
Proof. vm_compute. reflexivity. Qed.

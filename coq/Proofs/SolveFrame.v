(* C22: the only process-global state is `world`; a query built with the query constructor
   overwrites the variable-id counter and the stop flag, and the search only ever APPENDS to
   the output.  Hence everything a query does is independent of the world it is started in
   (as long as no deterministic stop schedule of the verification hook is pending).
   The case analysis of the search behind the append-only law is stated for two different runs
   (`framed`), so that it also gives the monotonicity in the fuel of SolveMono.v. *)
From Coq Require Import Lia.
From Suiron Require Import Model.Term Model.Subst Model.Show Model.Lists Model.Arith Model.Unify
  Model.Compare Model.Builtins Model.Rename Model.Solve Proofs.SolveDead.
Open Scope N_scope.

(* the same world with more text already printed in front *)
Definition wpre (pre : str) (w : world) : world :=
  mkWorld (next_id w) (stop_flag w) (stop_after w) (pre ++ out w).

Definition rpre (pre : str) (r : res step_result) : res step_result :=
  match r with
  | Ok (nd, s, c, w) => Ok (nd, s, c, wpre pre w)
  | Panic => Panic
  | OutOfFuel => OutOfFuel
  end.

Lemma wpre_print pre w s : w_print (wpre pre w) s = wpre pre (w_print w s).
Proof. unfold w_print, wpre. simpl. now rewrite app_assoc. Qed.
Lemma wpre_set_flag pre w b : w_set_flag (wpre pre w) b = wpre pre (w_set_flag w b).
Proof. reflexivity. Qed.
Lemma wpre_nil w : wpre [] w = w.
Proof. destruct w; reflexivity. Qed.
Lemma rpre_nil r : rpre [] r = r.
Proof. destruct r as [[[[nd s] c] w]| |]; cbn; now rewrite ?wpre_nil. Qed.

Lemma wpre_query_stopped pre w :
  query_stopped (wpre pre w) = (fst (query_stopped w), wpre pre (snd (query_stopped w))).
Proof. destruct w as [i fl af o]. unfold query_stopped, wpre. simpl. destruct af as [[|p]|]; reflexivity. Qed.

Lemma wpre_count_rules kb key pre w :
  count_rules kb key (wpre pre w) = (fst (count_rules kb key w), wpre pre (snd (count_rules kb key w))).
Proof.
  unfold count_rules. rewrite wpre_query_stopped. destruct (query_stopped w) as [b w']. simpl.
  destruct b; reflexivity.
Qed.

Definition npre (pre : str) (r : res (node * world)) : res (node * world) :=
  match r with Ok (nd, w) => Ok (nd, wpre pre w) | Panic => Panic | OutOfFuel => OutOfFuel end.

Lemma wpre_make_node kb pre : forall g ss w, make_node kb g ss (wpre pre w) = npre pre (make_node kb g ss w).
Proof.
  fix IH 1. intros g ss w. destruct g as [k gs|f ts|t|]; try reflexivity.
  - destruct k; destruct gs as [|h tl]; try reflexivity; cbn [make_node]; rewrite IH;
      destruct (make_node kb h ss w) as [[hn w']| |]; reflexivity.
  - cbn [make_node]. destruct (term_key t) as [key| |]; try reflexivity. cbn [bind].
    rewrite wpre_count_rules. destruct (count_rules kb key w) as [n w']. reflexivity.
Qed.

Lemma wpre_make_base_node kb pre g w : make_base_node kb g (wpre pre w) = npre pre (make_base_node kb g w).
Proof.
  destruct g as [k gs|f ts|t|]; try reflexivity. unfold make_base_node.
  destruct (term_key t) as [key| |]; try reflexivity. cbn [bind].
  rewrite wpre_count_rules. destruct (count_rules kb key w) as [n w']. reflexivity.
Qed.

(* One case analysis for two facts: the search with text already printed in front (C22), and the
   search with more fuel (SolveMono.v).  `framed r1 r2`: a finished run r1 is matched by r2 up to
   the prefix; when `strict` holds a run that fails is matched by the same failure. *)
Section Frame.
  Variable kb : kbase.
  Variable bf : nat.
  Variable pre : str.
  Variable strict : Prop.

  Definition framed (r1 r2 : res step_result) : Prop :=
    match r1 with Ok _ => r2 = rpre pre r1 | _ => strict -> r2 = r1 end.

  Definition framed_next (n1 n2 : node -> world -> res step_result) : Prop :=
    forall nd w, framed (n1 nd w) (n2 nd (wpre pre w)).
  Definition framed_and (a1 a2 : subst -> bool -> bool -> option node -> option node ->
                              option (list goal) -> bool -> world -> res step_result) : Prop :=
    forall ss nobt more head tail optail acc w,
      framed (a1 ss nobt more head tail optail acc w) (a2 ss nobt more head tail optail acc (wpre pre w)).
  Definition framed_call (c1 c2 : term -> subst -> bool -> option node -> N -> N -> world -> res step_result) : Prop :=
    forall t ss nobt child idx n w, framed (c1 t ss nobt child idx n w) (c2 t ss nobt child idx n (wpre pre w)).

  (* two runs in sequence, and a node made on the way *)
  Lemma framed_bind e1 e2 k1 k2 :
    framed e1 e2 -> (forall nd o c w, framed (k1 (nd, o, c, w)) (k2 (nd, o, c, wpre pre w))) ->
    framed (bind e1 k1) (bind e2 k2).
  Proof.
    intros He Hk. destruct e1 as [[[[nd o] c] w]| |]; cbn [framed rpre bind] in *;
      [rewrite He; apply Hk|intro X; now rewrite (He X)..].
  Qed.
  Lemma framed_made g ss w k1 k2 :
    (forall t w2, framed (k1 (t, w2)) (k2 (t, wpre pre w2))) ->
    framed (bind (make_node kb g ss w) k1) (bind (make_node kb g ss (wpre pre w)) k2).
  Proof.
    intro Hk. rewrite wpre_make_node. destruct (make_node kb g ss w) as [[t w2]| |]; cbn [npre bind framed]; auto.
  Qed.
  Lemma framed_same {A} (e : res A) k1 k2 : (forall a, framed (k1 a) (k2 a)) -> framed (bind e k1) (bind e k2).
  Proof. intro Hk. destruct e; cbn [bind framed]; auto. Qed.
  Ltac run Hn := apply framed_bind; [apply Hn|intros ?n ?o ?c ?w; cbn beta iota].
  Ltac made := apply framed_made; intros ?t ?w; cbn beta iota.

  Lemma next_body_framed n1 n2 a1 a2 c1 c2 :
    framed_next n1 n2 -> framed_and a1 a2 -> framed_call c1 c2 ->
    framed_next (next_body kb bf n1 a1 c1) (next_body kb bf n2 a2 c2).
  Proof.
    intros Hn Ha Hc nd w.
    destruct nd as [t ss nobt child idx n|k ss nobt more head tail optail|fn ts ss nobt more];
      (destruct nobt; [reflexivity|]).
    - destruct child as [c0|]; unfold next_body; cbv beta iota delta [node_nobt]; [|apply Hc].
      run Hn. destruct o; [reflexivity|apply Hc].
    - destruct k.
      + destruct tail as [t0|]; unfold next_body; cbv beta iota delta [node_nobt]; [|apply Ha].
        run Hn. destruct o; [reflexivity|apply Ha].
      + destruct tail as [t0|]; [|destruct head as [h|]]; unfold next_body; cbv beta iota delta [node_nobt];
          [run Hn; reflexivity| |reflexivity].
        run Hn. destruct o; [reflexivity|].
        destruct optail as [tl|]; [|reflexivity].
        destruct (length tl =? 0)%nat; [reflexivity|]. destruct (false || c); [reflexivity|].
        made. run Hn. reflexivity.
      + destruct more; [destruct head as [h|]|]; unfold next_body; cbv beta iota delta [node_nobt negb];
          [|now intro|reflexivity].
        run Hn. now rewrite wpre_print.
      + destruct more; [destruct head as [h|]|]; unfold next_body; cbv beta iota delta [node_nobt negb];
          [|now intro|reflexivity].
        run Hn. reflexivity.
    - destruct more; unfold next_body; cbv beta iota delta [node_nobt negb]; [|reflexivity].
      apply framed_same; intro r. now rewrite wpre_print.
  Qed.

  Lemma and_body_framed n1 n2 a1 a2 :
    framed_next n1 n2 -> framed_and a1 a2 -> framed_and (and_body kb n1 a1) (and_body kb n2 a2).
  Proof.
    intros Hn Ha ss nobt more head tail optail acc w.
    destruct head as [h|]; unfold and_body; cbv beta iota; [|reflexivity].
    run Hn. destruct o; [|reflexivity].
    destruct optail as [tl|]; [|reflexivity].
    destruct (length tl =? 0)%nat; [reflexivity|].
    made. run Hn. destruct o; [reflexivity|apply Ha].
  Qed.

  Lemma call_body_framed n1 n2 c1 c2 :
    framed_next n1 n2 -> framed_call c1 c2 -> framed_call (call_body kb bf n1 c1) (call_body kb bf n2 c2).
  Proof.
    intros Hn Hc t ss nobt child idx n w.
    destruct nobt; unfold call_body; cbv beta iota; [reflexivity|]. destruct (n <=? idx); [reflexivity|].
    change (next_id (wpre pre w)) with (next_id w).
    apply framed_same; intro key. apply framed_same; intros [r0 ctr]. apply framed_same; intros [s|]; cbv beta iota.
    - destruct (is_gnil (r_body r0)); [reflexivity|].
      change (w_set_id (wpre pre w) ctr) with (wpre pre (w_set_id w ctr)). made. run Hn. destruct o; [reflexivity|apply Hc].
    - apply Hc.
  Qed.

  Lemma framed_fuel f1 f2 :
    framed_next (next kb bf f1) (next kb bf f2) /\ framed_and (and_loop kb bf f1) (and_loop kb bf f2) /\
    framed_call (call_loop kb bf f1) (call_loop kb bf f2) ->
    framed_next (next kb bf (S f1)) (next kb bf (S f2)) /\
    framed_and (and_loop kb bf (S f1)) (and_loop kb bf (S f2)) /\
    framed_call (call_loop kb bf (S f1)) (call_loop kb bf (S f2)).
  Proof.
    intros (Hn & Ha & Hc). split; [|split]; red; intros.
    - rewrite !next_S. now apply next_body_framed.
    - rewrite !and_loop_S. now apply and_body_framed.
    - rewrite !call_loop_S. now apply call_body_framed.
  Qed.
End Frame.

Lemma frame_all kb bf pre fuel :
  framed_next pre True (next kb bf fuel) (next kb bf fuel) /\
  framed_and pre True (and_loop kb bf fuel) (and_loop kb bf fuel) /\
  framed_call pre True (call_loop kb bf fuel) (call_loop kb bf fuel).
Proof. induction fuel; [repeat split; red; intros; now intro|now apply framed_fuel]. Qed.

Theorem next_frame kb bf pre fuel nd w : next kb bf fuel nd (wpre pre w) = rpre pre (next kb bf fuel nd w).
Proof.
  pose proof (proj1 (frame_all kb bf pre fuel) nd w) as H.
  destruct (next kb bf fuel nd w); cbn in H; auto.
Qed.

Theorem make_query_forgets terms w :
  api_make_query terms w =
  match api_make_query terms world0 with
  | Ok (g, w0) => Ok (g, mkWorld (next_id w0) false (stop_after w) (out w))
  | Panic => Panic
  | OutOfFuel => OutOfFuel
  end.
Proof.
  unfold api_make_query. destruct (make_query terms) as [[g ctr]| |]; reflexivity.
Qed.

Inductive qop := QAsk | QSolve | QSolveAll.
Inductive qobs := OAns (s : option subst) | OStr (s : str) | OStrs (l : list str).

Definition run_op (kb : kbase) (fuel : nat) (op : qop) (nd : node) (w : world)
  : res (qobs * node * world) :=
  match op with
  | QAsk => do x <- next kb fuel fuel nd w; let '(nd', r, _, w') := x in Ok (OAns r, nd', w')
  | QSolve => do x <- solve fuel kb nd w; let '(nd', s, w') := x in Ok (OStr s, nd', w')
  | QSolveAll => do x <- solve_all fuel kb nd w; let '(nd', l, w') := x in Ok (OStrs l, nd', w')
  end.

Fixpoint run_ops (kb : kbase) (fuel : nat) (ops : list qop) (nd : node) (w : world)
  : res (list qobs * node * world) :=
  match ops with
  | [] => Ok ([], nd, w)
  | op :: rest =>
      do x <- run_op kb fuel op nd w;
      let '(o, nd', w') := x in
      do y <- run_ops kb fuel rest nd' w';
      let '(os, nd'', w'') := y in Ok (o :: os, nd'', w'')
  end.

(* building a query and operating on it, from a given world: observations and everything printed *)
Definition run_query (kb : kbase) (fuel : nat) (terms : list term) (ops : list qop) (w : world)
  : res (list qobs * str) :=
  do a <- api_make_query terms w;
  let '(g, w1) := a in
  do b <- make_base_node kb g w1;
  let '(nd, w2) := b in
  do c <- run_ops kb fuel ops nd w2;
  let '(os, _, w3) := c in Ok (os, out w3).

Definition spre (pre : str) {A} (r : res (A * world)) : res (A * world) :=
  match r with Ok (a, w) => Ok (a, wpre pre w) | Panic => Panic | OutOfFuel => OutOfFuel end.

Lemma solve_frame kb pre fuel nd w : solve fuel kb nd (wpre pre w) = spre pre (solve fuel kb nd w).
Proof.
  unfold solve. rewrite wpre_set_flag, next_frame.
  destruct (next kb fuel fuel nd (w_set_flag w false)) as [[[[n1 o1] b1] w1]| |]; cbn [rpre bind spre]; try reflexivity.
  rewrite wpre_query_stopped. destruct (query_stopped w1) as [st w2]. cbn [fst snd].
  destruct st; [reflexivity|]. destruct o1 as [s|]; [|reflexivity].
  destruct (node_goal_term n1) as [q|]; [|reflexivity].
  destruct (replace_variables fuel q s) as [r| |]; cbn [bind]; try reflexivity.
  destruct (format_solution (GCall q) r) as [txt| |]; reflexivity.
Qed.

Lemma solve_all_loop_frame kb pre fuel : forall n nd q acc w,
  solve_all_loop n fuel kb nd q acc (wpre pre w) = spre pre (solve_all_loop n fuel kb nd q acc w).
Proof.
  induction n as [|f IH]; intros nd q acc w; [reflexivity|].
  cbn [solve_all_loop]. rewrite next_frame.
  destruct (next kb fuel fuel nd w) as [[[[n1 o1] b1] w1]| |]; cbn [rpre bind spre]; try reflexivity.
  rewrite wpre_query_stopped. destruct (query_stopped w1) as [st w2]. cbn [fst snd].
  destruct st; [reflexivity|]. destruct o1 as [s|]; [|reflexivity].
  destruct (replace_variables fuel q s) as [r| |]; cbn [bind]; try reflexivity.
  destruct (format_solution (GCall q) r) as [txt| |]; cbn [bind]; try reflexivity. apply IH.
Qed.

Lemma solve_all_frame kb pre fuel nd w : solve_all fuel kb nd (wpre pre w) = spre pre (solve_all fuel kb nd w).
Proof.
  unfold solve_all. destruct (node_goal_term nd) as [q|]; [|reflexivity].
  rewrite wpre_set_flag, solve_all_loop_frame.
  destruct (solve_all_loop fuel fuel kb nd q [] (w_set_flag w false)) as [[[n1 acc] w1]| |]; cbn [spre bind]; try reflexivity.
  rewrite wpre_query_stopped. destruct (query_stopped w1) as [st w2]. reflexivity.
Qed.

Lemma run_op_frame kb pre fuel op nd w :
  run_op kb fuel op nd (wpre pre w) = spre pre (run_op kb fuel op nd w).
Proof.
  destruct op; unfold run_op.
  - rewrite next_frame. destruct (next kb fuel fuel nd w) as [[[[n1 o1] b1] w1]| |]; reflexivity.
  - rewrite solve_frame. destruct (solve fuel kb nd w) as [[[n1 s1] w1]| |]; reflexivity.
  - rewrite solve_all_frame. destruct (solve_all fuel kb nd w) as [[[n1 s1] w1]| |]; reflexivity.
Qed.

Lemma run_ops_frame kb pre fuel : forall ops nd w,
  run_ops kb fuel ops nd (wpre pre w) = spre pre (run_ops kb fuel ops nd w).
Proof.
  induction ops as [|op rest IH]; intros nd w; [reflexivity|].
  cbn [run_ops]. rewrite run_op_frame.
  destruct (run_op kb fuel op nd w) as [[[o n1] w1]| |]; cbn [spre bind]; try reflexivity.
  rewrite IH. destruct (run_ops kb fuel rest n1 w1) as [[[os n2] w2]| |]; reflexivity.
Qed.

(* Whatever ran before (any value of the variable-id counter, any stop flag - e.g. left set by
   a query that timed out -, any output), a query built with the query constructor yields
   the observations it yields in a fresh process, and prints the same text (after what had
   been printed before). *)
Theorem query_independent_of_history kb fuel terms ops w :
  stop_after w = None ->
  run_query kb fuel terms ops w =
  match run_query kb fuel terms ops world0 with
  | Ok (os, o) => Ok (os, out w ++ o)
  | Panic => Panic
  | OutOfFuel => OutOfFuel
  end.
Proof.
  intro Hs. unfold run_query. rewrite (make_query_forgets terms w).
  destruct (api_make_query terms world0) as [[g w0]| |] eqn:E; cbn [bind]; try reflexivity.
  assert (stop_flag w0 = false /\ stop_after w0 = None /\ out w0 = []) as (Hf & Ha & Ho).
  { unfold api_make_query in E. destruct (make_query terms) as [[g' ctr]| |]; try discriminate.
    inversion E; subst. auto. }
  assert (mkWorld (next_id w0) false (stop_after w) (out w) = wpre (out w) w0) as ->.
  { unfold wpre. rewrite Hf, Ha, Ho, Hs, app_nil_r. reflexivity. }
  rewrite wpre_make_base_node.
  destruct (make_base_node kb g w0) as [[nd w2]| |]; cbn [npre bind]; try reflexivity.
  rewrite run_ops_frame.
  destruct (run_ops kb fuel ops nd w2) as [[[os n3] w3]| |]; reflexivity.
Qed.

(* C19, closing the gap between terms and goals, part 1: the texts of leaf goals and the
   scanners that see them from the goal level.
     - `gtext`: the grammar of the texts of canonical terms (word, f(p1, ..., pn), [p1, ..., pn],
       [p1, ..., pn | v]); every canonical term prints as a gtext, every gtext is `good`.
     - `crosses g s`: the tokenizer's scan (`lscan` of Proofs/GoalRoundtrip.v) crosses s without a
       token, inside brackets and (g = true) in the ground state; from it `neutral`.
     - the infix scan of parse_subgoal (`check_infix`) finds nothing in a text without
       `<`, `>`, `=` or a double quote, and finds the ` = ` of `l = r` when the parentheses of l are closed.
     - `seg` / `top_text`: the facts about a text that are kept by concatenation, by f(..) and by [..];
       every gtext is `top_text`.
   That a scan which steps over bracketed stretches crosses such a text is proved at three levels: for
   the argument splitters of parse_term (`pa_scan`, `pll_scan`, Proofs/ParseTermProofs.v), for their
   abstraction over term texts (`dscan` / `fscan` / `bscan`, Proofs/TermRoundtripText.v) and here for
   the tokenizer (`lscan`, `crosses`).  They are not one development: the splitters count brackets
   and never fail on a closing one, the tokenizer keeps a stack of bracket kinds and fails on a
   mismatch - `)(` is crossed by the former, not by the latter. *)
From Coq Require Import Lia String.
From Suiron Require Import Model.Tokenizer Proofs.TokenizerStream Proofs.TokenizerProofs Proofs.GoalRoundtrip.
From Suiron Require Import Model.ParseTerm Model.Show Spec.SpecLists Proofs.ListProofs.
From Suiron Require Import Proofs.ParseTermProofs Proofs.ParseRoundtrip.
From Suiron Require Import Proofs.TermRoundtrip Proofs.TermRoundtripText Proofs.TermRoundtripComplex Proofs.TermRoundtripMain.
Open Scope N_scope.

Inductive gtext : str -> Prop :=
| gt_word w : word w -> gtext w
| gt_atom w : wide_atom w = true -> gtext w
| gt_call f ps : simple_atom f = true -> (forall p, In p ps -> gtext p) -> gtext (call_text f ps)
| gt_list ps : (forall p, In p ps -> gtext p) -> gtext (list_text ps)
| gt_list_bar ps v : (forall p, In p ps -> gtext p) -> word v -> gtext (list_text_bar ps v).

Lemma gtext_good s : gtext s -> good s.
Proof.
  induction 1 as [w Hw|w Hw|f ps Hf Hps IH|ps Hps IH|ps v Hps IH Hv].
  - now apply good_word.
  - now apply good_wide_atom.
  - apply good_call; [now apply simple_atom_word|]. now apply Forall_forall.
  - apply good_list. now apply Forall_forall.
  - apply good_list_bar; [now apply Forall_forall|now apply good_word].
Qed.

Lemma gtext_map ts : (forall t, In t ts -> gtext (show_term t)) ->
  forall p, In p (map show_term ts) -> gtext p.
Proof. intros H p Hp. apply in_map_iff in Hp as (t & <- & Ht). now apply H. Qed.

(* lists, with their tail (nothing, or a term that prints as a word) *)
Lemma list_gtext l ts tl :
  elems l = Some (ts, tl) -> (forall t, In t ts -> gtext (show_term t)) ->
  match tl with
  | None => True
  | Some v => ts <> [] /\ is_nil v = false /\ word (show_term v)
  end -> gtext (show_term l).
Proof.
  intros He IH Htl. pose proof (elems_non_nil l ts tl He) as Hnn.
  rewrite (elems_nodes l ts tl He). destruct tl as [v|]; cbv iota.
  - destruct Htl as (Hne & Hv & Hw). rewrite show_list_tail by assumption.
    apply gt_list_bar; [now apply gtext_map|exact Hw].
  - rewrite <- make_list_of_terms_nodes, show_list_plain by exact Hnn.
    apply gt_list. now apply gtext_map.
Qed.

Lemma canonical_gtext t : canonical t -> gtext (show_term t).
Proof.
  intros H.
  induction H as [s Hs|z Hz|name Hn| |f ts Hf Hts IH Hlen|l ts He Hts IH|l ts name He Hne Hts IH Hn
                  |l ts He Hne Hts IH].
  - now apply gt_atom.
  - apply gt_word. apply show_Z_word.
  - cbn [show_term]. change (0 =? 0) with true. cbv iota. apply gt_word. now apply simple_var_word.
  - apply gt_word. apply anon_word.
  - rewrite show_complex_text. apply gt_call; [|now apply gtext_map].
    unfold functor_name in Hf. now apply andb_true_iff in Hf as [Hf _].
  - now apply (list_gtext l ts None).
  - apply (list_gtext l ts _ He IH). split; [exact Hne|]. split; [reflexivity|].
    cbn [show_term]. change (0 =? 0) with true. cbv iota. now apply simple_var_word.
  - apply (list_gtext l ts _ He IH). split; [exact Hne|]. split; [reflexivity|apply anon_word].
Qed.

Lemma printable_not_tk_white c : 33 <= c <= 126 -> tk_is_whitespace c = false.
Proof.
  intros H. destruct (tk_is_whitespace c) eqn:E; [|reflexivity].
  pose proof (ReaderProofs.ws_coarse c E). lia.
Qed.

(* printable ends: both notions of trim leave the text alone *)
Definition printable (c : N) : Prop := 33 <= c <= 126.

Lemma tk_trim_printable s : s <> [] -> printable (hd 0 s) -> printable (last s 0) -> tk_trim s = s.
Proof.
  intros Hne Hh Hl. apply nonwhite_ends_trim. split.
  - destruct s as [|c r]; [now elim Hne|]. exists c, r. split; [reflexivity|].
    now apply printable_not_tk_white.
  - destruct (exists_last Hne) as (r & d & ->). exists r, d. split; [reflexivity|].
    rewrite last_last in Hl. now apply printable_not_tk_white.
Qed.

Lemma trim_printable s : s <> [] -> printable (hd 0 s) -> printable (last s 0) -> trim s = s.
Proof.
  intros Hne Hh Hl. apply trimmed_trim. right. split; now apply printable_not_white.
Qed.

Lemma tchar_printable_or_blank c : tchar c = true -> printable c \/ c = 32.
Proof.
  intros H. apply tchar_cases in H. unfold printable.
  destruct H as [H|[->|[->|[->|[->|[->|[->| ->]]]]]]];
    try (left; unfold c_comma, c_bar, c_lpar, c_rpar, c_lbr, c_rbr; lia); [|now right].
  apply wchar_range in H. left. lia.
Qed.

Lemma good_printable_ends s : good s -> printable (hd 0 s) /\ printable (last s 0).
Proof.
  intros H. pose proof (g_ne s H) as Hne. pose proof (g_chars s H) as Hc. split.
  - pose proof (good_hd_tchar s H) as Hh. apply tchar_printable_or_blank in Hh as [Hh|Hh]; [exact Hh|].
    pose proof (g_hdw s H) as Hw. rewrite Hh in Hw. discriminate.
  - pose proof (Forall_last _ s 0 Hne Hc) as Hl. cbv beta in Hl.
    apply tchar_printable_or_blank in Hl as [Hl|Hl]; [exact Hl|].
    pose proof (g_lastw s H) as Hw. rewrite Hl in Hw. discriminate.
Qed.

Lemma no_esc_ne c m p : (c =? m) = false -> no_esc c m p = false.
Proof. intros E. unfold no_esc. rewrite E. now destruct (p =? ch_backslash). Qed.

Lemma no_esc_eq m p : (p =? ch_backslash) = false -> no_esc m m p = true.
Proof. intros E. unfold no_esc. now rewrite E, N.eqb_refl. Qed.

(* The character classes of the tokenizer side (those of term texts - ident_char, wchar, achar,
   tchar, ... - are tabulated in Proofs/TermRoundtrip.v):
     inert_in   no double quote ( ) [ ] \   the scan passes over it inside a complex term or a list
     inert      inert_in, not # @ , ;      ... and in the ground state          inert < inert_in
     inert_at g inert (g = true) or inert_in (g = false)
     nosp       not < > = double quote       the infix scan of parse_subgoal ignores it   tchar < nosp
     fileplain  not . # % / double quote     the file reader does not look for it
     lchar      fileplain, not :           (no neck `:-` either)
     schar      inert_in and lchar         ochar      inert and lchar
                wchar, achar < ochar < schar   (wchar_ochar, achar_ochar)
     printable  33 .. 126
   Related classes elsewhere: symb / hardb (one-character tokens, Proofs/TokenizerProofs.v),
   sepc / nosepc (where the file reader may break a line, Proofs/LoadLayout.v). *)
Definition inert_in (c : N) : bool :=
  negb (c =? ch_quote) && negb (c =? ch_lparen) && negb (c =? ch_rparen) &&
  negb (c =? ch_lbracket) && negb (c =? ch_rbracket) && negb (c =? ch_backslash).
Definition inert (c : N) : bool :=
  inert_in c && negb (c =? ch_hash) && negb (c =? ch_at) && negb (c =? ch_comma) &&
  negb (c =? ch_semicolon).

Lemma inert_in_facts c : inert_in c = true ->
  (c =? ch_quote) = false /\ (c =? ch_lparen) = false /\ (c =? ch_rparen) = false /\
  (c =? ch_lbracket) = false /\ (c =? ch_rbracket) = false /\ (c =? ch_backslash) = false.
Proof.
  unfold inert_in. intros H. repeat (apply andb_true_iff in H as [H ?]).
  repeat match goal with Hx : negb _ = true |- _ => apply negb_true_iff in Hx end. tauto.
Qed.

Lemma inert_facts c : inert c = true ->
  inert_in c = true /\ (c =? ch_hash) = false /\ (c =? ch_at) = false /\ (c =? ch_comma) = false /\
  (c =? ch_semicolon) = false.
Proof.
  unfold inert. intros H.
  apply andb_true_iff in H as [H H4]. apply andb_true_iff in H as [H H3].
  apply andb_true_iff in H as [H H2]. apply andb_true_iff in H as [H H1].
  apply negb_true_iff in H1, H2, H3, H4. tauto.
Qed.

(* g = true: in any state; g = false: inside a complex term or a list *)
Definition inert_at (g : bool) (c : N) : bool := if g then inert c else inert_in c.

Lemma inert_at_in g c : inert_at g c = true -> inert_in c = true.
Proof. destruct g; [|auto]. intros H. now destruct (inert_facts c H). Qed.

Lemma lscan_inert g c r f p loc : inert_at g c = true -> (g = false -> loc <> []) ->
  lscan (S f) (c :: r) p loc = lscan f r c loc.
Proof.
  intros H Hloc. destruct (inert_in_facts c (inert_at_in g c H)) as (E1 & E2 & E3 & E4 & E5 & _).
  cbn [lscan]. rewrite !no_esc_ne by assumption.
  destruct loc as [|ty loc']; [|reflexivity].
  destruct g; [|now elim Hloc]. destruct (inert_facts c H) as (_ & F1 & F2 & F3 & F4).
  rewrite !no_esc_ne by assumption. unfold invalid_between_terms. now rewrite E1, F1, F2.
Qed.

(* the scan crosses s and leaves the local stack as it was *)
Definition crosses (g : bool) (s : str) : Prop := forall p, (p =? ch_backslash) = false ->
  exists pf, (pf =? ch_backslash) = false /\
    forall fuel rest loc, (g = false -> loc <> []) ->
      lscan (length s + fuel) (s ++ rest) p loc = lscan fuel rest pf loc.

Lemma crosses_weaken g s : crosses true s -> crosses g s.
Proof.
  intros H p Hp. destruct (H p Hp) as (pf & Hpf & Hs). exists pf. split; [exact Hpf|].
  intros fuel rest loc _. apply Hs. discriminate.
Qed.

Lemma crosses_app g a b : crosses g a -> crosses g b -> crosses g (a ++ b).
Proof.
  intros Ha Hb p Hp. destruct (Ha p Hp) as (p1 & Hp1 & H1). destruct (Hb p1 Hp1) as (p2 & Hp2 & H2).
  exists p2. split; [exact Hp2|]. intros fuel rest loc Hloc.
  rewrite app_length, <- Nat.add_assoc, <- app_assoc. rewrite H1 by exact Hloc. now apply H2.
Qed.

Lemma crosses_chars g s : Forall (fun c => inert_at g c = true) s -> crosses g s.
Proof.
  induction s as [|c s IH]; intros H p Hp; [exists p; split; [exact Hp|reflexivity]|].
  inversion H as [|x l Hc Hs]; subst.
  destruct (inert_in_facts c (inert_at_in g c Hc)) as (_ & _ & _ & _ & _ & Ec).
  destruct (IH Hs c Ec) as (pf & Hpf & Hscan).
  exists pf. split; [exact Hpf|]. intros fuel rest loc Hloc. cbn [length app Nat.add].
  rewrite (lscan_inert g) by assumption. now apply Hscan.
Qed.

(* the tests of ident_char are the first tests of letter_number_hyphen *)
Lemma ident_lnh c : ident_char c = true -> letter_number_hyphen c = true.
Proof.
  unfold ident_char, is_lower, is_upper, is_digit, in_range, letter_number_hyphen, ch_underscore.
  destruct ((97 <=? c) && (c <=? 122)), ((65 <=? c) && (c <=? 90)), ((48 <=? c) && (c <=? 57)),
    (c =? 95); try reflexivity; discriminate.
Qed.

(* f(body) with the body crossed inside; [body] *)
Lemma crosses_call f body :
  Forall (fun c => inert c = true) f -> f <> [] -> letter_number_hyphen (last f 0) = true ->
  crosses false body -> crosses true (f ++ ch_lparen :: body ++ [ch_rparen]).
Proof.
  intros Hf Hne Hl Hb p Hp.
  (* f = f' ++ [d]: after d the previous character is known *)
  destruct (exists_last Hne) as (f' & d & ->). rewrite last_last in Hl.
  apply Forall_app in Hf as [Hf' Hd]. inversion Hd as [|? ? Hd' _]; subst.
  destruct (crosses_chars true f' Hf' p Hp) as (p1 & Hp1 & Hscan1).
  destruct (Hb ch_lparen eq_refl) as (pb & Hpb & Hscan).
  destruct (inert_in_facts d (inert_at_in true d Hd')) as (_ & _ & _ & _ & _ & Ed).
  exists ch_rparen. split; [reflexivity|]. intros fuel rest loc _.
  replace (length ((f' ++ [d]) ++ ch_lparen :: body ++ [ch_rparen]) + fuel)%nat
    with (length f' + S (S (length body + S fuel)))%nat
    by (rewrite !app_length; cbn [length]; rewrite app_length; cbn [length]; lia).
  rewrite <- !app_assoc. rewrite Hscan1 by discriminate. cbn [app].
  rewrite (lscan_inert true) by (assumption || discriminate).
  cbn [lscan]. rewrite (no_esc_ne ch_lparen ch_quote) by reflexivity.
  rewrite (no_esc_eq ch_lparen _ Ed), Hl.
  rewrite <- app_assoc. rewrite Hscan by discriminate. cbn [app lscan].
  rewrite (no_esc_ne ch_rparen ch_quote) by reflexivity.
  rewrite (no_esc_ne ch_rparen ch_lparen) by reflexivity.
  rewrite (no_esc_eq ch_rparen _ Hpb). reflexivity.
Qed.

Lemma crosses_brackets body : crosses false body -> crosses true (ch_lbracket :: body ++ [ch_rbracket]).
Proof.
  intros Hb p Hp. destruct (Hb ch_lbracket eq_refl) as (pb & Hpb & Hscan).
  exists ch_rbracket. split; [reflexivity|]. intros fuel rest loc _.
  replace (length (ch_lbracket :: body ++ [ch_rbracket]) + fuel)%nat
    with (S (length body + S fuel))%nat
    by (cbn [length]; rewrite app_length; cbn [length]; lia).
  cbn [app lscan]. rewrite (no_esc_ne ch_lbracket ch_quote) by reflexivity.
  rewrite (no_esc_ne ch_lbracket ch_lparen) by reflexivity.
  rewrite (no_esc_ne ch_lbracket ch_rparen) by reflexivity.
  rewrite (no_esc_eq ch_lbracket _ Hp).
  rewrite <- app_assoc. rewrite Hscan by discriminate. cbn [app lscan].
  rewrite (no_esc_ne ch_rbracket ch_quote) by reflexivity.
  rewrite (no_esc_ne ch_rbracket ch_lparen) by reflexivity.
  rewrite (no_esc_ne ch_rbracket ch_rparen) by reflexivity.
  rewrite (no_esc_ne ch_rbracket ch_lbracket) by reflexivity.
  rewrite (no_esc_eq ch_rbracket _ Hpb). reflexivity.
Qed.

Lemma simple_atom_last_lnh f : simple_atom f = true -> letter_number_hyphen (last f 0) = true.
Proof.
  destruct f as [|c r]; [discriminate|]. cbn [simple_atom]. intros H.
  apply andb_true_iff in H as [Hc Hr]. rewrite forallb_forall, <- Forall_forall in Hr.
  apply ident_lnh.
  apply (Forall_last (fun c => ident_char c = true)); [discriminate|].
  constructor; [now apply lower_ident|exact Hr].
Qed.

Lemma neutral_of_scan t : t <> [] -> tk_trim t = t -> crosses true t -> neutral t.
Proof.
  intros Hne Ht Habs. apply neutral_intro; [exact Hne|exact Ht|]. intros p0 Hp.
  assert (Hp0 : (p0 =? ch_backslash) = false) by (destruct Hp as [->|[->| ->]]; reflexivity).
  destruct (Habs p0 Hp0) as (pf & Hpf & Hscan). exists pf. split; [|exact Hpf].
  specialize (Hscan 1%nat [] [] ltac:(discriminate)). rewrite app_nil_r, Nat.add_1_r in Hscan. exact Hscan.
Qed.

Definition nosp (c : N) : bool :=
  negb (c =? c_lt) && negb (c =? c_gt) && negb (c =? c_eq) && negb (c =? c_dquote).

Lemma nosp_facts c : nosp c = true ->
  (c =? c_lt) = false /\ (c =? c_gt) = false /\ (c =? c_eq) = false /\ (c =? c_dquote) = false.
Proof.
  unfold nosp. intros H. repeat (apply andb_true_iff in H as [H ?]).
  repeat match goal with Hx : negb _ = true |- _ => apply negb_true_iff in Hx end. tauto.
Qed.

Lemma ci_loop_none len s : (2 <= len)%nat -> Forall (fun c => nosp c = true) s ->
  forall i prev skip, ci_loop len s i prev skip = Ok (INone, O).
Proof.
  intros Hlen. induction s as [|c1 tl IH]; intros H i prev skip; [reflexivity|].
  inversion H as [|x l Hc Htl]; subst. destruct (nosp_facts c1 Hc) as (E1 & E2 & E3 & E4).
  cbn [ci_loop]. destruct skip as [[close open]|].
  { destruct (c1 =? close); now apply IH. }
  rewrite E4. destruct (c1 =? c_lpar).
  { destruct (has_char c_rpar tl); now apply IH. }
  destruct (negb (prev =? 32)); [now apply IH|].
  assert (El : (len <? 2)%nat = false) by (apply Nat.ltb_ge; lia). rewrite El.
  destruct (len - 2 <=? i)%nat; [reflexivity|]. rewrite E1, E2, E3. now apply IH.
Qed.

Lemma tchar_nosp c : tchar c = true -> nosp c = true.
Proof. intros H. unfold nosp. now rewrite !(class_neq tchar c _ H) by reflexivity. Qed.

Lemma tchars_nosp s : Forall (fun c => tchar c = true) s -> Forall (fun c => nosp c = true) s.
Proof. intros H. eapply Forall_impl; [|exact H]. intros c Hc. now apply tchar_nosp. Qed.

(* every `(` has a `)` somewhere after it *)
Fixpoint pclosed (s : str) : bool :=
  match s with
  | [] => true
  | c :: tl => (negb (c =? c_lpar) || has_char c_rpar tl) && pclosed tl
  end.

Lemma has_char_app c a b : has_char c (a ++ b) = has_char c a || has_char c b.
Proof. unfold has_char. apply existsb_app. Qed.

Lemma pclosed_app a b : pclosed a = true -> pclosed b = true -> pclosed (a ++ b) = true.
Proof.
  induction a as [|c a IH]; intros Ha Hb; [exact Hb|].
  cbn [app pclosed] in *. apply andb_true_iff in Ha as [H1 H2].
  rewrite (IH H2 Hb), andb_true_r. rewrite has_char_app.
  apply orb_true_iff in H1 as [H1|H1]; [now rewrite H1|]. rewrite H1. now rewrite orb_true_r.
Qed.

Lemma pclosed_no_lpar s : count_c c_lpar s = 0 -> pclosed s = true.
Proof.
  induction s as [|c s IH]; intros H; [reflexivity|]. cbn [count_c pclosed] in *.
  destruct (c =? c_lpar); [lia|]. cbn [negb orb andb]. apply IH. lia.
Qed.

Lemma pclosed_enclosed body : pclosed body = true -> pclosed (c_lpar :: body ++ [c_rpar]) = true.
Proof.
  intros H. cbn [pclosed]. rewrite has_char_app. cbn [has_char existsb]. rewrite N.eqb_refl.
  rewrite !orb_true_r. cbn [andb]. apply pclosed_app; [exact H|reflexivity].
Qed.

(* outside a skipped stretch, a character that is neither special nor `(` is passed over *)
Lemma ci_step len c tl i prev :
  nosp c = true -> (c =? c_lpar) = false -> (i + 2 < len)%nat ->
  ci_loop len (c :: tl) i prev None = ci_loop len tl (S i) c None.
Proof.
  intros Hc El Hi. destruct (nosp_facts c Hc) as (E1 & E2 & E3 & E4).
  cbn [ci_loop]. rewrite E4, El. destruct (negb (prev =? 32)); [reflexivity|].
  assert (Hl2 : (len <? 2)%nat = false) by (apply Nat.ltb_ge; lia).
  assert (Hi1 : (len - 2 <=? i)%nat = false) by (apply Nat.leb_gt; lia).
  now rewrite Hl2, Hi1, E1, E2, E3.
Qed.

(* crossing a text without special characters whose parentheses are closed: the scan is
   outside a skipped stretch before it and after it *)
Lemma ci_loop_cross len rest s :
  Forall (fun c => nosp c = true) s -> pclosed s = true ->
  (forall i prev, (i + length s + 2 <= len)%nat ->
     exists prev', ci_loop len (s ++ rest) i prev None = ci_loop len rest (i + length s) prev' None) /\
  (forall i prev o, (i + length s + 2 <= len)%nat ->
     if has_char c_rpar s
     then exists prev', ci_loop len (s ++ rest) i prev (Some (c_rpar, o)) =
                        ci_loop len rest (i + length s) prev' None
     else ci_loop len (s ++ rest) i prev (Some (c_rpar, o)) =
          ci_loop len rest (i + length s) prev (Some (c_rpar, o))).
Proof.
  induction s as [|c1 tl IH]; intros Hs Hp.
  { split.
    - intros i prev _. exists prev. cbn [app length]. now rewrite Nat.add_0_r.
    - intros i prev o _. cbn [has_char existsb app length]. now rewrite Nat.add_0_r. }
  inversion Hs as [|x l Hc Htl]; subst. cbn [pclosed] in Hp. apply andb_true_iff in Hp as [Hp1 Hp2].
  destruct (IH Htl Hp2) as [IH1 IH2]. destruct (nosp_facts c1 Hc) as (E1 & E2 & E3 & E4).
  assert (Hidx : forall i, (i + length (c1 :: tl))%nat = (S i + length tl)%nat)
    by (intros; cbn [length]; lia).
  split.
  - intros i prev Hlen. cbn [length] in Hlen. rewrite Hidx. cbn [app].
    destruct (c1 =? c_lpar) eqn:El.
    + cbn [ci_loop]. rewrite E4, El. cbn [negb orb] in Hp1. rewrite has_char_app, Hp1. cbn [orb].
      specialize (IH2 (S i) prev c1 ltac:(lia)). rewrite Hp1 in IH2. exact IH2.
    + rewrite ci_step by (assumption || lia). apply IH1. lia.
  - intros i prev o Hlen. cbn [app ci_loop has_char existsb]. rewrite Hidx.
    rewrite (N.eqb_sym c_rpar c1).
    destruct (c1 =? c_rpar) eqn:Er.
    + cbn [orb]. apply IH1. cbn [length] in Hlen. lia.
    + cbn [orb]. apply IH2. cbn [length] in Hlen. lia.
Qed.

Definition unify_text (l r : str) : str := l ++ [32; c_eq; 32] ++ r.

Lemma ci_loop_eq len r i : (2 <= len)%nat -> (i + 2 < len)%nat ->
  ci_loop len (c_eq :: 32 :: r) i 32 None = Ok (IUnify, i).
Proof.
  intros H2 Hi. remember (32 :: r) as tl eqn:Etl. cbn [ci_loop].
  change (c_eq =? c_dquote) with false. change (c_eq =? c_lpar) with false.
  change (negb (32 =? 32)) with false. cbv iota.
  assert (Hl2 : (len <? 2)%nat = false) by (apply Nat.ltb_ge; lia).
  assert (Hi1 : (len - 2 <=? i)%nat = false) by (apply Nat.leb_gt; lia).
  rewrite Hl2, Hi1.
  change (c_eq =? c_lt) with false. change (c_eq =? c_gt) with false. change (c_eq =? c_eq) with true.
  cbv iota. subst tl. cbv iota.
  change (32 =? c_eq) with false. change (32 =? 32) with true. reflexivity.
Qed.

Lemma check_infix_unify l r :
  Forall (fun c => nosp c = true) l -> pclosed l = true -> r <> [] ->
  check_infix (unify_text l r) = Ok (IUnify, (length l + 1)%nat).
Proof.
  intros Hl Hp Hr. unfold check_infix, unify_text.
  set (len := length (l ++ [32; c_eq; 32] ++ r)).
  assert (Hlen : len = (length l + 3 + length r)%nat).
  { unfold len. rewrite !app_length. cbn [length]. lia. }
  assert (Hr1 : (1 <= length r)%nat) by (destruct r; [now elim Hr|cbn [length]; lia]).
  destruct (ci_loop_cross len ([32; c_eq; 32] ++ r) l Hl Hp) as [H1 _].
  destruct (H1 0%nat c_hash ltac:(lia)) as (prev' & ->). cbn [Nat.add app].
  rewrite ci_step by (reflexivity || lia). rewrite ci_loop_eq by lia.
  do 2 f_equal. lia.
Qed.

(* square brackets are balanced in number *)
Definition sqbal (s : str) : Prop := count_c c_lbr s = count_c c_rbr s.

Lemma sqbal_app a b : sqbal a -> sqbal b -> sqbal (a ++ b).
Proof. unfold sqbal. intros Ha Hb. rewrite !count_c_app. now rewrite Ha, Hb. Qed.

(* not a period, `#`, `%`, `/` or a double quote *)
Definition fileplain (c : N) : bool :=
  negb (c =? 46) && negb (c =? 35) && negb (c =? 37) && negb (c =? 47) && negb (c =? 34).

(* `seg u`: what holds of a stretch of text wherever it stands, also between the parentheses of a
   complex term or the brackets of a list: the tokenizer's scan crosses it there, parentheses and
   square brackets are balanced in number, every `(` is closed, no colon and none of the
   characters the file reader looks for.  `top_text u`: moreover the scan crosses it in the ground
   state.  Both are closed under concatenation; a complex term f(body) and a list [body] are
   `top_text` as soon as the body is a `seg`. *)
Definition lchar (c : N) : bool := negb (c =? ch_colon) && fileplain c.
Definition schar (c : N) : bool := inert_in c && lchar c.
Definition ochar (c : N) : bool := inert c && lchar c.

(* x and y put around a text in which o and c are balanced *)
Lemma count_wrap o c x y b :
  count_c o b = count_c c b -> count_c o [x; y] = count_c c [x; y] ->
  count_c o (x :: b ++ [y]) = count_c c (x :: b ++ [y]).
Proof. cbn [count_c]. rewrite !count_c_app. cbn [count_c]. lia. Qed.

Record seg (u : str) : Prop := mkSeg {
  sg_in : crosses false u;
  sg_bal : count_c c_lpar u = count_c c_rpar u;
  sg_sq : sqbal u;
  sg_pc : pclosed u = true;
  sg_chars : Forall (fun c => lchar c = true) u }.

Definition top_text (u : str) : Prop := seg u /\ crosses true u.

Lemma seg_app a b : seg a -> seg b -> seg (a ++ b).
Proof.
  intros [A1 A2 A3 A4 A5] [B1 B2 B3 B4 B5]. constructor.
  - now apply crosses_app.
  - rewrite !count_c_app. now rewrite A2, B2.
  - now apply sqbal_app.
  - now apply pclosed_app.
  - apply Forall_app. now split.
Qed.

Lemma top_app a b : top_text a -> top_text b -> top_text (a ++ b).
Proof. intros [A1 A2] [B1 B2]. split; [now apply seg_app|now apply crosses_app]. Qed.

Lemma seg_chars u : Forall (fun c => schar c = true) u -> seg u.
Proof.
  intros H.
  assert (Hi : Forall (fun c => inert_in c = true) u).
  { eapply Forall_impl; [|exact H]. intros c Hc. now apply andb_true_iff in Hc as [Hc _]. }
  constructor.
  - now apply (crosses_chars false).
  - now rewrite !(count_c_notin inert_in _ u) by (reflexivity || assumption).
  - unfold sqbal. now rewrite !(count_c_notin inert_in _ u) by (reflexivity || assumption).
  - apply pclosed_no_lpar. now apply (count_c_notin inert_in).
  - eapply Forall_impl; [|exact H]. intros c Hc. now apply andb_true_iff in Hc as [_ Hc].
Qed.

Lemma ochars_inert u : Forall (fun c => ochar c = true) u -> Forall (fun c => inert c = true) u.
Proof. intros H. eapply Forall_impl; [|exact H]. intros c Hc. now apply andb_true_iff in Hc as [Hc _]. Qed.

Lemma top_chars u : Forall (fun c => ochar c = true) u -> top_text u.
Proof.
  intros H. split; [|now apply (crosses_chars true), ochars_inert].
  apply seg_chars. eapply Forall_impl; [|exact H]. intros c Hc. unfold ochar, schar in *.
  apply andb_true_iff in Hc as [Hi Hl]. destruct (inert_facts c Hi) as [Hi' _]. now rewrite Hi', Hl.
Qed.

Lemma seg_join ps : (forall p, In p ps -> seg p) -> seg (join_strs sep_comma ps).
Proof.
  induction ps as [|p ps IH]; intros H; [apply seg_chars; constructor|].
  destruct ps as [|q rest]; [cbn [join_strs]; apply H; now left|].
  rewrite join_strs_cons2. apply seg_app; [apply H; now left|].
  apply seg_app; [apply seg_chars; repeat constructor|]. apply IH. intros x Hx. apply H. now right.
Qed.

Lemma top_call f body :
  Forall (fun c => ochar c = true) f -> f <> [] -> letter_number_hyphen (last f 0) = true ->
  seg body -> top_text (f ++ c_lpar :: body ++ [c_rpar]).
Proof.
  intros Hf Hne Hl [B1 B2 B3 B4 B5]. destruct (top_chars f Hf) as [[F1 F2 F3 F4 F5] _].
  assert (Ha : crosses true (f ++ c_lpar :: body ++ [c_rpar])).
  { apply crosses_call; try assumption. now apply ochars_inert. }
  split; [|exact Ha]. constructor.
  - now apply crosses_weaken.
  - rewrite !count_c_app. f_equal; [exact F2|now apply count_wrap].
  - apply sqbal_app; [exact F3|now apply count_wrap].
  - apply pclosed_app; [exact F4|now apply pclosed_enclosed].
  - apply Forall_app. split; [exact F5|]. constructor; [reflexivity|].
    apply Forall_app. split; [exact B5|repeat constructor].
Qed.

Lemma top_brackets body : seg body -> top_text (c_lbr :: body ++ [c_rbr]).
Proof.
  intros [B1 B2 B3 B4 B5]. split; [|now apply crosses_brackets]. constructor.
  - now apply crosses_weaken, crosses_brackets.
  - now apply count_wrap.
  - now apply count_wrap.
  - apply (pclosed_app [c_lbr]); [reflexivity|]. apply pclosed_app; [exact B4|reflexivity].
  - constructor; [reflexivity|]. apply Forall_app. split; [exact B5|repeat constructor].
Qed.

Lemma wchar_ochar c : wchar c = true -> ochar c = true.
Proof.
  intros H. unfold ochar, inert, inert_in, lchar, fileplain.
  now rewrite !(class_neq wchar c _ H) by reflexivity.
Qed.

Lemma achar_ochar c : achar c = true -> ochar c = true.
Proof.
  intros H. unfold ochar, inert, inert_in, lchar, fileplain.
  now rewrite !(class_neq achar c _ H) by reflexivity.
Qed.

Lemma wchars_ochars w : Forall (fun c => wchar c = true) w -> Forall (fun c => ochar c = true) w.
Proof. intros H. eapply Forall_impl; [|exact H]. intros c Hc. now apply wchar_ochar. Qed.

Lemma word_top w : word w -> top_text w.
Proof. intros (_ & Hall & _). now apply top_chars, wchars_ochars. Qed.

Theorem gtext_top s : gtext s -> top_text s.
Proof.
  induction 1 as [w Hw|w Hw|f ps Hf Hps IH|ps Hps IH|ps v Hps IH Hv].
  - now apply word_top.
  - apply top_chars. destruct (wide_atom_facts w Hw) as (_ & _ & Hall & _).
    eapply Forall_impl; [|exact Hall]. intros c Hc. now apply achar_ochar.
  - pose proof (simple_atom_word f Hf) as (Hne & Hall & _).
    apply top_call; [now apply wchars_ochars|exact Hne|now apply simple_atom_last_lnh|].
    apply seg_join. intros p Hp. apply (IH p Hp).
  - apply top_brackets, seg_join. intros p Hp. apply (IH p Hp).
  - apply top_brackets. apply seg_app; [apply seg_join; intros p Hp; apply (IH p Hp)|].
    apply seg_app; [apply seg_chars; repeat constructor|apply (word_top v Hv)].
Qed.

(* C06/C07 in terms of values (Spec/SpecUnifySem.v), on plain terms and substitution sets.

   SOUND (`sound_sem`): a successful `unify` returns a plain substitution set that keeps every
   earlier binding verbatim, and every valuation that solves the result solves the input and gives
   both terms the same value.  (With `$_` this is FALSE: Properties/C06.v.)

   On plain terms the relation `dens` is the graph of the function `den`; hence most-general /
   complete (Proofs/UnifyComplete.v) in functional form, and symmetry (C07): if one order succeeds
   with a solvable result, the other order does not fail, and both results have exactly the same
   solutions.

   The bridge from the syntactic specification (Spec/SpecUnify.v: `teq`, `unifier`): terms that are
   `teq` under a plain substitution set have the same value under every valuation that solves it.
   Hence the completeness statement of Spec/SpecUnify.v holds on plain terms for every syntactic
   unifier that has a solution (is free of cycles through compound terms: C06_complete_syntactic in Properties/C06.v); as written there it is
   false, because `teq` relates NaN to itself and `unify` does not (Properties/C06.v, C06_full_false). *)
From Suiron Require Import Model.Term Model.Subst Model.Show Model.Lists Model.Arith Model.Unify
  Spec.SpecUnify Spec.SpecUnifySem Proofs.UnifyInv Proofs.UnifySound Proofs.UnifyComplete.
Open Scope N_scope.

Lemma plain_complex_inv ts : plain (TComplex ts) = true ->
  exists s rest, ts = TAtom s :: rest /\ forallb plain rest = true.
Proof.
  unfold plain. cbn [pl]. destruct ts as [|f rest]; [discriminate|]. destruct f; try discriminate.
  cbn [negb andb]. intro H. eauto.
Qed.

Lemma pl_chain_list t : pl true t = true -> exists h nx c tv, t = TList h nx c tv.
Proof.
  destruct t; cbn; try discriminate; eauto.
  destruct ts as [|f r]; [discriminate|]. destruct f; discriminate.
Qed.

Lemma plain_not_anon t : plain t = true -> is_anon t = false.
Proof. destruct t; try reflexivity. discriminate. Qed.

Lemma solves_keeps sigma ss ss' : keeps ss ss' -> solves sigma ss' -> solves sigma ss.
Proof. intros K H id t Hg. apply H, K, Hg. Qed.

(* what can stand in a plain term at any position: a plain term, a list node in chain position
   (possibly a tail node), or the Nil marker *)
Definition pg (t : term) : bool := is_nil t || pl false t || pl true t.

Lemma plain_pg t : plain t = true -> pg t = true.
Proof. unfold plain, pg. intros ->. now rewrite orb_true_r. Qed.
Lemma plain_not_nil t : plain t = true -> is_nil t = false.
Proof. destruct t; try reflexivity. discriminate. Qed.

(* `pg` is inherited by the parts that `teq` relates *)
Lemma pg_node h nx c : pg (TList h nx c false) = true -> pg h = true /\ pg nx = true.
Proof.
  unfold pg. cbn [is_nil orb pl]. destruct (is_nil h); rewrite orb_diag; cbn [orb]; [intros ->; auto|].
  intro H. apply andb_true_iff in H as [-> ->]. now rewrite !orb_true_r.
Qed.

Lemma pg_tail h nx c : pg (TList h nx c true) = true -> pg h = true.
Proof. unfold pg. cbn. destruct h; try discriminate; reflexivity. Qed.

Lemma pg_complex ts : pg (TComplex ts) = true -> Forall (fun t => pg t = true) ts.
Proof.
  unfold pg. cbn [is_nil orb pl]. destruct ts as [|[] rest]; try discriminate.
  cbn [negb andb]. rewrite orb_false_r. intro H. constructor; [reflexivity|].
  apply Forall_forall. intros x Hx. rewrite forallb_forall in H. now apply plain_pg, H.
Qed.

Section Bridge.
  Variable ss : subst.
  Variable sigma : valuation.
  Hypothesis Hplain : plain_ss ss.
  Hypothesis Hsolves : solves sigma ss.

  (* `teq` also relates heads of list nodes, where the Nil marker may stand (the head of `[]`): hence
     `pg`; and `den` of a node asks `is_nil` of its head, so that is carried along with the value. *)
  Definition same_value (a b : term) : Prop :=
    pg a = true -> pg b = true -> is_nil a = is_nil b /\ den sigma a = den sigma b.
  Definition same_values (ls rs : list term) : Prop :=
    Forall (fun t => pg t = true) ls -> Forall (fun t => pg t = true) rs ->
    map (den sigma) ls = map (den sigma) rs.

  Lemma var_is_pg id n : pg (TVar id n) = true.
  Proof. reflexivity. Qed.

  Theorem teq_den : forall a b, teq ss a b -> same_value a b.
  Proof.
    apply (teq_mut ss (fun a b _ => same_value a b) (fun ls rs _ => same_values ls rs));
      unfold same_value, same_values; auto.
    - intros b Ga; discriminate Ga.
    - intros a _ Gb; discriminate Gb.
    - intros f1 f2 [->|E] _ _; [auto|]. split; [reflexivity|]. cbn [den]. f_equal. now apply feqb_fkey.
    - intros id n t b Eg _ IH _ Gb.
      destruct (IH (plain_pg _ (Hplain _ _ Eg)) Gb) as [N D].
      rewrite (plain_not_nil _ (Hplain _ _ Eg)) in N. split; [exact N|].
      cbn [den]. now rewrite (Hsolves _ _ Eg).
    - intros id n t a Eg _ IH Ga _.
      destruct (IH Ga (plain_pg _ (Hplain _ _ Eg))) as [N D].
      rewrite (plain_not_nil _ (Hplain _ _ Eg)) in N. split; [exact N|].
      cbn [den]. now rewrite (Hsolves _ _ Eg).
    - intros ls rs _ IH Ga Gb. split; [reflexivity|]. cbn [den]. f_equal. apply IH; now apply pg_complex.
    - intros h1 n1 c1 h2 n2 c2 _ IHh _ IHn Ga Gb.
      destruct (pg_node _ _ _ Ga) as [A1 A2], (pg_node _ _ _ Gb) as [B1 B2].
      destruct (IHh A1 B1) as [N Dh]. destruct (IHn A2 B2) as [_ Dn].
      split; [reflexivity|]. cbn [den]. now rewrite N, Dh, Dn.
    - intros h1 n1 c1 h2 n2 c2 _ IH Ga Gb. split; [reflexivity|]. exact (proj2 (IH (pg_tail _ _ _ Ga) Gb)).
    - intros h1 n1 c1 h2 n2 c2 _ IH Ga Gb. split; [reflexivity|]. exact (proj2 (IH Ga (pg_tail _ _ _ Gb))).
    - intros h1 n1 c1 h2 n2 c2 _ IH Ga Gb. split; [reflexivity|].
      exact (proj2 (IH (pg_tail _ _ _ Ga) (pg_tail _ _ _ Gb))).
    - intros l r ls rs _ IHl _ IHs Pl Pr. inversion Pl; inversion Pr; subst.
      cbn [map]. f_equal; [now apply IHl|auto].
  Qed.
End Bridge.

Lemma pl_nf : forall t c, pl c t = true -> nf t = true.
Proof.
  induction t as [| |a0|f0|z0|id0 nm0|ts Hts|h nx c0 tv IHh IHn|nm args Hargs] using term_ind';
    intros c P; try reflexivity; try discriminate P; cbn [pl] in P; cbn [nf].
  - destruct ts as [|fn rest]; [discriminate P|]. destruct fn; try discriminate P.
    apply andb_true_iff in P as [_ P]. inversion Hts as [|? ? _ Hrest]; subst. cbn [forallb nf andb].
    clear Hts. induction Hrest as [|x l Hx Hl IH]; [reflexivity|]. cbn [forallb] in *.
    apply andb_true_iff in P as [P1 P2]. now rewrite (Hx _ P1), (IH P2).
  - destruct tv.
    + apply andb_true_iff in P as [_ P]. destruct h; try discriminate P. reflexivity.
    + destruct (is_nil h) eqn:Eh.
      * destruct h; try discriminate Eh. destruct nx; try discriminate P. reflexivity.
      * apply andb_true_iff in P as [P1 P2]. now rewrite (IHh _ P1), (IHn _ P2).
Qed.

(* in `next` position: a list node or a tail node *)
Lemma plain_parts : parts_closed (fun t => plain t = true) (fun t => pl true t = true).
Proof.
  split.
  - intros ts P. destruct (plain_complex_inv _ P) as (s & rest & -> & Pr).
    constructor; [reflexivity|]. apply Forall_forall. now rewrite forallb_forall in Pr.
  - intros h nx c [] P; [discriminate P|exact P].
  - intros h nx c P. cbn in P. destruct h; try discriminate P; reflexivity.
  - intros h nx c P. split; [exact P|]. cbn [pl] in P. destruct (is_nil h); [now left|].
    right. now apply andb_true_iff in P.
  - intros name args v P. discriminate P.
Qed.

(* soundness: `teq` (Proofs/UnifySound.v) read through the bridge `teq_den` *)
Theorem unify_ssound fuel a b ss ss' : unify fuel a b ss = Ok (Some ss') ->
  plain a = true -> plain b = true -> plain_ss ss ->
  plain_ss ss' /\ keeps ss ss' /\ forall sigma, solves sigma ss' -> den sigma a = den sigma b.
Proof.
  intros H Pa Pb Ps.
  assert (forall ts, plain (TComplex ts) = true -> exists s rest, ts = TAtom s :: rest) as Hat.
  { intros ts P. destruct (plain_complex_inv _ P) as (s & rest & -> & _). eauto. }
  destruct (unify_keeps _ _ plain_parts Hat fuel _ _ _ _ H Pa Pb Ps) as [K P].
  split; [exact P|]. split; [exact K|]. intros sigma Hs.
  apply (teq_den ss' sigma P Hs a b); [|now apply plain_pg..].
  exact (unify_teq _ _ plain_parts Hat (fun t => pl_nf t false) _ _ _ _ _ H Pa Pb Ps).
Qed.

Theorem unify_sound_sem : sound_sem unify.
Proof.
  intros fuel a b ss ss' Pa Pb Hs H. destruct (unify_ssound fuel a b ss ss' H Pa Pb Hs) as (P & K & D).
  split; [exact P|]. split; [exact K|]. intros sigma Hsg. split; [eapply solves_keeps; eauto|auto].
Qed.

Section Graph.
  Variable sigma : valuation.

  Lemma pl_dens : forall t,
    (pl false t = true -> dens sigma t (den sigma t)) /\
    (pl true t = true -> densl sigma t (den sigma t)).
  Proof.
    induction t as [| |a0|f0|z0|id0 nm0|ts Hts|h nx c tv IHh IHn|nm args Hargs] using term_ind';
      (split; intro P; try discriminate P); try (cbn [den]; constructor; fail).
    - cbn [pl negb andb] in P. cbn [den]. constructor. now destruct (f64_is_nan f0).
    - cbn [den]. constructor. destruct ts as [|f rest]; [discriminate P|]. destruct f; try discriminate P.
      cbn [pl negb andb] in P. inversion Hts as [|? ? Hf Hrest]; subst.
      cbn [map]. constructor; [constructor|].
      clear Hf Hts. induction Hrest as [|x l Hx Hl IH]; [constructor|].
      cbn [forallb] in P. apply andb_true_iff in P as [P1 P2]. cbn [map]. constructor; [apply Hx, P1|auto].
    - destruct ts as [|f rest]; [discriminate P|]. destruct f; discriminate P.
    - cbn [pl] in P. destruct tv; [discriminate P|]. cbn [den]. constructor.
      destruct (is_nil h) eqn:Eh.
      + destruct h; try discriminate Eh. constructor.
      + apply andb_true_iff in P as [P1 P2]. constructor; [exact Eh|apply IHh, P1|apply IHn, P2].
    - cbn [pl] in P. destruct tv.
      + cbn [andb] in P. destruct h; try discriminate P. cbn [den]. constructor. constructor.
      + cbn [den]. destruct (is_nil h) eqn:Eh.
        * destruct h; try discriminate Eh. constructor.
        * apply andb_true_iff in P as [P1 P2]. constructor; [exact Eh|apply IHh, P1|apply IHn, P2].
  Qed.

  Lemma plain_dens t : plain t = true -> dens sigma t (den sigma t).
  Proof. apply pl_dens. Qed.

  Lemma pl_dens_fun : forall t,
    (pl false t = true -> forall tr, dens sigma t tr -> tr = den sigma t) /\
    (pl true t = true -> forall tr, densl sigma t tr -> tr = den sigma t).
  Proof.
    induction t as [| |a0|f0|z0|id0 nm0|ts Hts|h nx c tv IHh IHn|nm args Hargs] using term_ind';
      (split; intros P tr D; try discriminate P); try (inversion D; subst; reflexivity; fail).
    - inversion D as [| | | | |ts' trs HF|]; subst. cbn [den]. f_equal.
      destruct ts as [|f rest]; [discriminate P|]. destruct f; try discriminate P.
      cbn [pl negb andb] in P. inversion Hts as [|? ? Hf Hrest]; subst.
      inversion HF as [|? tr0 ? trs0 Hd0 HF0]; subst. cbn [map]. f_equal; [now inversion Hd0|].
      clear Hf Hts HF D Hd0. revert trs0 HF0. induction Hrest as [|x l Hx Hl IH]; intros trs0 HF0.
      + now inversion HF0.
      + inversion HF0 as [|? tr1 ? trs1 Hd1 HF1]; subst.
        cbn [forallb] in P. apply andb_true_iff in P as [P1 P2]. cbn [map]. f_equal; [apply (proj1 Hx); assumption|auto].
    - cbn [pl] in P. destruct tv; [discriminate P|]. inversion D as [| | | | | |? ? ? ? Dl]; subst.
      cbn [den]. inversion Dl as [|? ? ? a b Eh Da Db|]; subst; [reflexivity|].
      rewrite Eh in *. apply andb_true_iff in P as [P1 P2].
      now rewrite (proj1 IHh P1 _ Da), (proj2 IHn P2 _ Db).
    - cbn [pl] in P. cbn [den]. destruct tv.
      + cbn [andb] in P. inversion D as [| |? ? ? ? Dh]; subst.
        destruct h; try discriminate P. now inversion Dh.
      + inversion D as [|? ? ? a b Eh Da Db|]; subst; [reflexivity|].
        rewrite Eh in *. apply andb_true_iff in P as [P1 P2].
        now rewrite (proj1 IHh P1 _ Da), (proj2 IHn P2 _ Db).
  Qed.

  Lemma plain_dens_fun t tr : plain t = true -> dens sigma t tr -> tr = den sigma t.
  Proof. intro P. apply (proj1 (pl_dens_fun t) P). Qed.

  Lemma solves_solvesr ss : plain_ss ss -> solves sigma ss -> solvesr sigma ss.
  Proof. intros P H id t Hg. rewrite (H _ _ Hg). apply plain_dens. eauto. Qed.

  Lemma solvesr_solves ss : plain_ss ss -> solvesr sigma ss -> solves sigma ss.
  Proof. intros P H id t Hg. apply plain_dens_fun; eauto. Qed.
End Graph.

Theorem unify_general_complete_fun : forall fuel a b ss r sigma,
  plain a = true -> plain b = true -> plain_ss ss ->
  unify fuel a b ss = Ok r ->
  solves sigma ss -> den sigma a = den sigma b ->
  exists ss', r = Some ss' /\ solves sigma ss'.
Proof.
  intros fuel a b ss r sigma Pa Pb Ps H Hs Hd.
  destruct (unify_gc fuel a b ss r sigma (den sigma a) H (solves_solvesr _ _ Ps Hs)
              (plain_dens _ _ Pa) ltac:(rewrite Hd; apply plain_dens, Pb)) as (ss' & -> & Hs').
  exists ss'. split; [reflexivity|].
  destruct (unify_ssound fuel a b ss ss' H Pa Pb Ps) as (P' & _ & _).
  apply solvesr_solves; assumption.
Qed.

Theorem unify_symmetric : forall fuel fuel' a b ss s1 r2 sigma0,
  plain a = true -> plain b = true -> plain_ss ss ->
  unify fuel a b ss = Ok (Some s1) -> solves sigma0 s1 ->
  unify fuel' b a ss = Ok r2 ->
  exists s2, r2 = Some s2 /\ forall sigma, solves sigma s1 <-> solves sigma s2.
Proof.
  intros fuel fuel' a b ss s1 r2 sigma0 Pa Pb Ps H1 Hs0 H2.
  destruct (unify_sound_sem fuel a b ss s1 Pa Pb Ps H1) as (P1 & K1 & S1).
  destruct (S1 sigma0 Hs0) as [Hss0 Hd0].
  destruct (unify_general_complete_fun fuel' b a ss r2 sigma0 Pb Pa Ps H2 Hss0 (eq_sym Hd0)) as (s2 & -> & _).
  exists s2. split; [reflexivity|].
  destruct (unify_sound_sem fuel' b a ss s2 Pb Pa Ps H2) as (P2 & K2 & S2).
  intro sigma. split; intro Hsg.
  - destruct (S1 sigma Hsg) as [Hss Hd].
    destruct (unify_general_complete_fun fuel' b a ss _ sigma Pb Pa Ps H2 Hss (eq_sym Hd)) as (s & E & Hs).
    now inversion E; subst.
  - destruct (S2 sigma Hsg) as [Hss Hd].
    destruct (unify_general_complete_fun fuel a b ss _ sigma Pa Pb Ps H1 Hss (eq_sym Hd)) as (s & E & Hs).
    now inversion E; subst.
Qed.



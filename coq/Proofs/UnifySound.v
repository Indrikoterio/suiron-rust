(* C06 (soundness): a successful unification returns a substitution that keeps every earlier
   binding and under which both terms denote the same term (`teq`, Spec/SpecUnify.v) - for every kind
   of operand that is inherited by parts, has atoms as functors and no function term where unify
   looks.  `wf2` is such a kind (unify_sound); the plain terms are another (Proofs/UnifySemTeq.v,
   where `teq` is read as equality of values). *)
From Suiron Require Import Model.Term Model.Subst Model.Show Model.Lists Model.Arith Model.Unify
  Spec.SpecUnify Proofs.UnifyInv Proofs.UnifyProps.
Open Scope N_scope.

Lemma teq_mono ss ss' : keeps ss ss' -> forall a b, teq ss a b -> teq ss' a b.
Proof.
  intro Hk.
  apply (teq_mut ss (fun a b _ => teq ss' a b) (fun ls rs _ => teq_args ss' ls rs));
    intros; try (constructor; auto; fail).
  - eapply teq_var_l; eauto.
  - eapply teq_var_r; eauto.
Qed.

Lemma teq_sym ss : forall a b, teq ss a b -> teq ss b a.
Proof.
  apply (teq_mut ss (fun a b _ => teq ss b a) (fun ls rs _ => teq_args ss rs ls));
    intros; try (constructor; auto; fail).
  - constructor. destruct o as [->|H]; [now left|right]. now rewrite feqb_sym.
  - eapply teq_var_r; eauto.
  - eapply teq_var_l; eauto.
Qed.

(* no function term where unify looks: it never looks at the `next` of a tail node *)
Fixpoint nf (t : term) : bool :=
  match t with
  | TFun _ _ => false
  | TComplex ts => forallb nf ts
  | TList h nx _ tv => nf h && (tv || nf nx)
  | _ => true
  end.

Lemma fn_free_nf : forall t, fn_free t = true -> nf t = true.
Proof.
  induction t as [| |a0|f0|z0|id0 nm0|ts Hts|a n c tv IHa IHn|nm args Hargs] using term_ind';
    cbn [fn_free nf]; intro Hf; auto.
  - induction Hts as [|x l Hx Hl IH]; [reflexivity|]. cbn [forallb] in *.
    apply andb_true_iff in Hf as [H1 H2]. now rewrite Hx, IH.
  - apply andb_true_iff in Hf as [H1 H2]. rewrite IHa, IHn by assumption. now destruct tv.
Qed.

Lemma teq_refl_nf ss : forall t, nf t = true -> teq ss t t.
Proof.
  induction t as [| |a0|f0|z0|id0 nm0|ts Hts|a n c tv IHa IHn|nm args Hargs] using term_ind';
    cbn [nf]; intro Hf; try (constructor; auto; fail).
  - constructor. induction Hts as [|x l Hx Hl IH]; [constructor|].
    cbn [forallb] in Hf. apply andb_true_iff in Hf as [H1 H2]. constructor; auto.
  - apply andb_true_iff in Hf as [H1 H2]. destruct tv.
    + apply teq_tail_both; auto.
    + apply teq_list_nodes; auto.
  - discriminate.
Qed.

(* Rust's derived `==` on terms implies teq *)
Lemma term_eqb_teq ss : forall a b, nf a = true -> term_eqb a b = true -> teq ss a b.
Proof.
  induction a as [| |a0|f0|z0|id0 nm0|ts Hts|a n c tv IHa IHn|nm args Hargs] using term_ind';
    intros b Hf H; destruct b; cbn [term_eqb] in H; try discriminate; try (constructor; fail).
  - apply str_eqb_eq in H. subst. constructor.
  - constructor. now right.
  - apply Z.eqb_eq in H. subst. constructor.
  - apply andb_true_iff in H as [H1 _]. apply N.eqb_eq in H1. subst. constructor.
  - constructor. cbn [nf] in Hf. revert ts0 H. induction Hts as [|x l Hx Hl IH]; intros [|y r] H; try discriminate.
    + constructor.
    + cbn [forallb] in Hf. apply andb_true_iff in Hf as [F1 F2]. apply andb_true_iff in H as [H1 H2].
      constructor; auto.
  - cbn [nf] in Hf. apply andb_true_iff in Hf as [F1 F2].
    apply andb_true_iff in H as [H H4]. apply andb_true_iff in H as [H H3]. apply andb_true_iff in H as [H1 H2].
    apply Bool.eqb_prop in H4. subst. destruct tv0.
    + apply teq_tail_both; auto.
    + apply teq_list_nodes; auto.
Qed.

(* the alias test: when the chain of bindings from `o` reaches the variable id, o and the
   variable denote the same thing *)
Lemma chain_reaches_teq f : forall id n o ss, chain_reaches f id o ss = Ok true -> teq ss (TVar id n) o.
Proof.
  induction f as [|f IH]; intros id n o ss H; destruct o; simpl in H; try discriminate.
  - destruct (N.eqb_spec id0 id) as [->|_]; [constructor|].
    destruct (ss_get ss id0); discriminate.
  - destruct (N.eqb_spec id0 id) as [->|_]; [constructor|].
    destruct (ss_get ss id0) as [t|] eqn:Eg; [|discriminate].
    eapply teq_var_r; eauto.
Qed.

Lemma keeps_extends ss ss' : extends ss ss' <-> keeps ss ss'.
Proof. split; intro H; exact H. Qed.

Definition wf2 (t : term) : bool := wf_term t && fn_free t.
Definition wf2_ss (ss : subst) : Prop := forall i t, ss_get ss i = Some t -> wf2 t = true.

Lemma wf2_split t : wf2 t = true -> wf_term t = true /\ fn_free t = true.
Proof. unfold wf2. intro H. now apply andb_true_iff in H. Qed.
Lemma wf2_ss_wf ss : wf2_ss ss -> wf_ss ss.
Proof. intros H i t Hg. exact (proj1 (wf2_split _ (H i t Hg))). Qed.

Lemma anon_teq ss a b : is_anon a || is_anon b = true -> teq ss a b.
Proof. intro H. apply orb_true_iff in H as [H|H]; [destruct a|destruct b]; try discriminate H; constructor. Qed.

(* For operands of any kind `Q` that is inherited by parts, has atoms as functors and no function
   terms: a successful unification keeps every binding, and makes the operands `teq`. *)
Section Sound.
  Variables Q Qc : term -> Prop.
  Hypothesis HQ : parts_closed Q Qc.
  Hypothesis Q_functor : forall ts, Q (TComplex ts) -> exists s rest, ts = TAtom s :: rest.
  Hypothesis Q_nf : forall t, Q t -> nf t = true.

  Lemma unify_keeps fuel : good Q keeps (unify fuel).
  Proof.
    intros a b ss o. apply (unify_inv Q Qc HQ keeps keeps_refl keeps_trans); [|now left].
    intros; now apply keeps_set.
  Qed.

  Section Level.
    Variable f : nat.
    Hypothesis IH : forall a b ss o, unify f a b ss = Ok (Some o) -> Q a -> Q b -> ss_all Q ss -> teq o a b.

    Lemma args_teq ls rs s s2 o : args_ok (unify f) ls rs s s2 o -> length ls = length rs ->
      Forall Q ls -> Forall Q rs -> ss_all Q s -> teq_args o ls rs.
    Proof.
      induction 1 as [ls rs s s2 N|l r ls rs s s2 o A _ IHa|l r ls rs s s2 s1 o _ E Hrest IHa];
        intros Hlen Hl Hr Hs.
      - destruct ls, rs; try discriminate Hlen; try (destruct N; discriminate). constructor.
      - inversion Hl; inversion Hr; subst. injection Hlen as Hlen.
        constructor; [now apply anon_teq|auto].
      - inversion Hl; inversion Hr; subst. injection Hlen as Hlen.
        destruct (unify_keeps f _ _ _ _ E) as [_ Q1]; auto.
        destruct (args_inv Q keeps keeps_refl keeps_trans _ (unify_keeps f) _ _ _ _ _ Hrest) as [K _];
          auto using keeps_refl.
        constructor; [apply (teq_mono _ _ K), (IH _ _ _ _ E)|apply IHa]; auto.
    Qed.

    Lemma lists_teq a b s o : lists_ok (unify f) a b s o -> Qc a -> Qc b -> ss_all Q s -> teq o a b.
    Proof.
      induction 1 as [h1 n1 c1 h2 n2 c2 s A|h1 n1 c1 h2 n2 c2 s o E|h1 n1 c1 h2 n2 c2 s o E
                      |h1 n1 c1 h2 n2 c2 s o E|n1 c1 n2 c2 s|h1 n1 c1 h2 n2 c2 s s1 o E Hl IHl];
        intros Ha Hb Hs.
      - rewrite orb_comm in A. auto using teq_tail_both, anon_teq.
      - exact (teq_tail_both _ _ _ _ _ _ _ (IH _ _ _ _ E (pc_tail _ _ HQ _ _ _ Ha) (pc_tail _ _ HQ _ _ _ Hb) Hs)).
      - exact (teq_tail_l _ _ _ _ _ _ _
                 (IH _ _ _ _ E (pc_tail _ _ HQ _ _ _ Ha) (proj1 (pc_node _ _ HQ _ _ _ Hb)) Hs)).
      - exact (teq_tail_r _ _ _ _ _ _ _ (teq_sym _ _ _
                 (IH _ _ _ _ E (pc_tail _ _ HQ _ _ _ Hb) (proj1 (pc_node _ _ HQ _ _ _ Ha)) Hs))).
      - apply teq_list_empty.
      - destruct (pc_node _ _ HQ _ _ _ Ha) as [_ [[_ N]|[A1 A2]]];
          [destruct n1; try discriminate N; inversion Hl|].
        destruct (pc_node _ _ HQ _ _ _ Hb) as [_ [[_ N]|[B1 B2]]];
          [destruct n2; try discriminate N; inversion Hl|].
        destruct (unify_keeps f _ _ _ _ E) as [_ Q1]; auto.
        destruct (lists_inv Q Qc HQ keeps keeps_refl keeps_trans _ (unify_keeps f) _ _ _ _ Hl) as [K _]; auto.
        apply teq_list_nodes; [apply (teq_mono _ _ K), (IH _ _ _ _ E)|apply IHl]; auto.
    Qed.

    Lemma body_teq a b ss o : body_ok (unify f) f a b ss o -> Q a -> Q b -> ss_all Q ss -> teq o a b.
    Proof.
      destruct 1 as [a b ss S|a b ss o E|id n u b ss o Eg E|id n b ss Ec|id n b ss Hid Hn Han He Hc
                    |ls rs ss o Hlen Hargs|h1 n1 c1 v1 h2 n2 c2 v2 ss o Hl|name args v b ss o Ev E];
        intros Ha Hb Hs.
      - destruct S as [S|[S| ->]]; [|destruct b; try discriminate S|]; try constructor.
        now apply term_eqb_teq; [apply Q_nf|].
      - apply teq_sym. now apply (IH _ _ _ _ E).
      - destruct (unify_keeps f _ _ _ _ E (Hs _ _ Eg) Hb Hs) as [K _].
        eapply teq_var_l; [apply K, Eg|exact (IH _ _ _ _ E (Hs _ _ Eg) Hb Hs)].
      - eapply chain_reaches_teq; eauto.
      - eapply teq_var_l; [apply ss_get_set_same|apply teq_refl_nf, Q_nf, Hb].
      - constructor.
        exact (args_teq _ _ _ _ _ Hargs Hlen (pc_complex _ _ HQ _ Ha) (pc_complex _ _ HQ _ Hb) Hs).
      - exact (lists_teq _ _ _ _ Hl (pc_list _ _ HQ _ _ _ _ Ha) (pc_list _ _ HQ _ _ _ _ Hb) Hs).
      - discriminate (Q_nf _ Ha).
    Qed.
  End Level.

  Theorem unify_teq fuel a b ss o : unify fuel a b ss = Ok (Some o) -> Q a -> Q b -> ss_all Q ss -> teq o a b.
  Proof.
    revert fuel a b ss o. apply (unify_ok_ind (fun a b ss o => Q a -> Q b -> ss_all Q ss -> teq o a b)).
    exact body_teq.
  Qed.
End Sound.

Lemma wf2_parts : parts_closed (fun t => wf2 t = true) (fun t => wf2 t = true).
Proof.
  assert (forall h nx c tv, wf2 (TList h nx c tv) = true -> wf2 h = true /\ wf2 nx = true) as Hl.
  { unfold wf2. cbn [wf_term fn_free]. intros h nx c tv H. apply andb_true_iff in H as [W F].
    apply andb_true_iff in W as [-> ->]. now apply andb_true_iff in F as [-> ->]. }
  split; auto.
  - intros ts H. apply wf2_split in H as [W F]. destruct ts as [|f rest]; [discriminate W|].
    apply wf_complex_inv in W as [[s ->] W]. constructor; [reflexivity|].
    cbn in F. apply Forall_forall. intros x Hx. rewrite forallb_forall in W, F.
    unfold wf2. now rewrite (W x Hx), (F x Hx).
  - intros h nx c H. apply (Hl _ _ _ _ H).
  - intros h nx c H. split; [exact H|]. right. apply (Hl _ _ _ _ H).
  - intros name args v H. apply wf2_split in H as [_ F]. discriminate F.
Qed.

Theorem unify_sound : forall fuel a b ss ss', wf2 a = true -> wf2 b = true -> wf2_ss ss ->
  unify fuel a b ss = Ok (Some ss') -> teq ss' a b /\ keeps ss ss' /\ wf2_ss ss'.
Proof.
  intros fuel a b ss ss' Ha Hb Hs H.
  assert (forall t, wf2 t = true -> nf t = true) as Hnf by (intros t W; apply fn_free_nf, wf2_split, W).
  assert (forall ts, wf2 (TComplex ts) = true -> exists s rest, ts = TAtom s :: rest) as Hat.
  { intros [|[] rest] W; try discriminate W. eauto. }
  split; [exact (unify_teq _ _ wf2_parts Hat Hnf _ _ _ _ _ H Ha Hb Hs)|].
  exact (unify_keeps _ _ wf2_parts Hat fuel _ _ _ _ H Ha Hb Hs).
Qed.

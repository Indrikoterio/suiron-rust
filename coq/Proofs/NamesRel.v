(* C11, names are ignored: the relation "equal up to the NAMES of variables" and the primitives of
   Model/Term.v and Model/Subst.v.

   The relation is parametrised by a set V of admissible triples (id, name on the left, name on
   the right).  The engine compares variables with the derived `PartialEq` (`term_eqb`), which
   looks at the id AND the name; that comparison is insensitive to a renaming only when an id
   determines its name on either side: `vfun V`.  During a search V grows with every clause fetch
   (Proofs/NamesSearch.v).

   A function term `join(..)` is in the relation only when its arguments contain no variable:
   `join` converts its arguments to text with `show_term`, which prints the name of an unbound
   variable (counterexample in Properties/C11.v). *)
From Coq Require Import Lia.
From Suiron Require Import Model.Term Model.Subst Model.Show Model.Lists Model.Arith Model.Unify.
Open Scope N_scope.

Definition vrel := N -> str -> str -> Prop.
Definition vfun (V : vrel) : Prop :=
  forall id a b a' b', V id a b -> V id a' b' -> a = a' /\ b = b'.
Definition vle (V V' : vrel) : Prop := forall id a b, V id a b -> V' id a b.
Definition vbound (V : vrel) (n : N) : Prop := forall id a b, V id a b -> id <= n.
Definition vtop : vrel := fun _ _ _ => True.

Lemma vle_refl V : vle V V. Proof. intros id a b H; exact H. Qed.
Lemma vle_trans A B C : vle A B -> vle B C -> vle A C.
Proof. intros H1 H2 id a b H. apply H2, H1, H. Qed.
Lemma vle_top V : vle V vtop. Proof. intros id a b _. exact I. Qed.
Lemma vbound_le V n m : vbound V n -> n <= m -> vbound V m.
Proof. intros H Hl id a b Hv. specialize (H _ _ _ Hv). lia. Qed.

(* Related failures (None with None, Panic with Panic, OutOfFuel with OutOfFuel) compute to True:
   throughout Proofs/Names*.v `exact I` closes the goals where both sides fail alike.
   (Proofs/NamesEngine.v has `optrel`, the same as an inductive type, because the relation on
   solution nodes recurses through it and must be strictly positive.) *)
Definition orel {A B} (R : A -> B -> Prop) (x : option A) (y : option B) : Prop :=
  match x, y with
  | Some a, Some b => R a b
  | None, None => True
  | _, _ => False
  end.

Definition rrel {A B} (R : A -> B -> Prop) (x : res A) (y : res B) : Prop :=
  match x, y with
  | Ok a, Ok b => R a b
  | Panic, Panic => True
  | OutOfFuel, OutOfFuel => True
  | _, _ => False
  end.

Lemma rrel_bind {A B C D} (R : A -> B -> Prop) (S : C -> D -> Prop) x y f g :
  rrel R x y -> (forall a b, R a b -> rrel S (f a) (g b)) -> rrel S (bind x f) (bind y g).
Proof.
  destruct x as [a| |], y as [b| |]; cbn [rrel bind]; intros H Hf; try contradiction; auto.
Qed.

(* case analysis on a pair of related options, in a goal that mentions both *)
Lemma orel_case {A B} (R : A -> B -> Prop) x y : orel R x y ->
  forall P : option A -> option B -> Prop,
  P None None -> (forall a b, R a b -> P (Some a) (Some b)) -> P x y.
Proof. destruct x, y; cbn; intros H P H0 H1; try contradiction; auto. Qed.

Lemma rrel_bind_opt {A B C D} (R : A -> B -> Prop) (S : C -> D -> Prop) x y f g :
  rrel (orel R) x y -> rrel S (f None) (g None) ->
  (forall a b, R a b -> rrel S (f (Some a)) (g (Some b))) -> rrel S (bind x f) (bind y g).
Proof.
  intros Hx H0 H1. eapply rrel_bind; [exact Hx|]. intros o o' Ho. apply (orel_case _ _ _ Ho); assumption.
Qed.

Lemma rrel_if {A B} (R : A -> B -> Prop) (b b' : bool) x x' y y' :
  b = b' -> rrel R x x' -> rrel R y y' -> rrel R (if b then x else y) (if b' then x' else y').
Proof. intros <- Hx Hy. destruct b; assumption. Qed.

Lemma rrel_mono {A B} (R S : A -> B -> Prop) x y :
  (forall a b, R a b -> S a b) -> rrel R x y -> rrel S x y.
Proof. destruct x, y; cbn; auto. Qed.

Lemma orel_mono {A B} (R S : A -> B -> Prop) x y :
  (forall a b, R a b -> S a b) -> orel R x y -> orel S x y.
Proof. destruct x, y; cbn; auto. Qed.

Lemma rrel_ok {A B} (R : A -> B -> Prop) a b : R a b -> rrel R (Ok a) (Ok b).
Proof. intro H; exact H. Qed.

Lemma Forall2_mono {A B} (R S : A -> B -> Prop) l l' :
  (forall a b, R a b -> S a b) -> Forall2 R l l' -> Forall2 S l l'.
Proof. intros H; induction 1; constructor; auto. Qed.

Lemma Forall2_length' {A B} (R : A -> B -> Prop) l l' : Forall2 R l l' -> length l = length l'.
Proof. induction 1; simpl; congruence. Qed.

Lemma Forall2_flip {A B} (R : A -> B -> Prop) l l' : Forall2 R l l' -> Forall2 (fun b a => R a b) l' l.
Proof. induction 1; constructor; auto. Qed.

Lemma Forall2_comp {A B C} (R : B -> C -> Prop) (T : A -> C -> Prop) l m :
  Forall2 (fun a b => forall c, R b c -> T a c) l m -> forall n, Forall2 R m n -> Forall2 T l n.
Proof. induction 1; intros n Hn; inversion Hn; subst; constructor; auto. Qed.

Lemma Forall2_eq_on {A} (p : A -> bool) l l' :
  Forall2 (fun a b => p a = true -> b = a) l l' -> forallb p l = true -> l' = l.
Proof.
  induction 1 as [|a b l l' Hab _ IH]; [reflexivity|]. cbn. intro H. apply andb_true_iff in H as [H1 H2].
  now rewrite (Hab H1), (IH H2).
Qed.

Lemma Forall2_map_eq {A B C} (f : A -> C) (g : B -> C) l l' :
  Forall2 (fun a b => f a = g b) l l' -> map f l = map g l'.
Proof. induction 1; cbn; congruence. Qed.

Lemma Forall2_nth_error {A B} (R : A -> B -> Prop) l l' : Forall2 R l l' ->
  forall i, orel R (nth_error l i) (nth_error l' i).
Proof. induction 1; intros [|i]; cbn; auto. Qed.

Fixpoint novars (t : term) : bool :=
  match t with
  | TVar _ _ => false
  | TComplex ts => forallb novars ts
  | TList a n _ _ => novars a && novars n
  | TFun _ args => forallb novars args
  | _ => true
  end.

(* a function term that may occur: not `join`, or no variable among the arguments *)
Definition nojoin (name : str) (args : list term) : Prop :=
  str_eqb name fname_join = false \/ forallb novars args = true.

Section Sim.
  Variable V : vrel.

  Inductive sim : term -> term -> Prop :=
  | sim_nil : sim TNil TNil
  | sim_anon : sim TAnon TAnon
  | sim_atom s : sim (TAtom s) (TAtom s)
  | sim_float f : sim (TFloat f) (TFloat f)
  | sim_int z : sim (TInt z) (TInt z)
  | sim_var id a b : V id a b -> sim (TVar id a) (TVar id b)
  | sim_complex ts ts' : Forall2 sim ts ts' -> sim (TComplex ts) (TComplex ts')
  | sim_list a a' n n' c tv : sim a a' -> sim n n' -> sim (TList a n c tv) (TList a' n' c tv)
  | sim_fun name args args' : nojoin name args -> Forall2 sim args args' ->
      sim (TFun name args) (TFun name args').

  Section sim_ind2.
    Variable P : term -> term -> Prop.
    Hypothesis Hnil : P TNil TNil.
    Hypothesis Hanon : P TAnon TAnon.
    Hypothesis Hatom : forall s, P (TAtom s) (TAtom s).
    Hypothesis Hfloat : forall f, P (TFloat f) (TFloat f).
    Hypothesis Hint : forall z, P (TInt z) (TInt z).
    Hypothesis Hvar : forall id a b, V id a b -> P (TVar id a) (TVar id b).
    Hypothesis Hcomplex : forall ts ts', Forall2 sim ts ts' -> Forall2 P ts ts' ->
      P (TComplex ts) (TComplex ts').
    Hypothesis Hlist : forall a a' n n' c tv, sim a a' -> P a a' -> sim n n' -> P n n' ->
      P (TList a n c tv) (TList a' n' c tv).
    Hypothesis Hfun : forall name args args', nojoin name args -> Forall2 sim args args' ->
      Forall2 P args args' -> P (TFun name args) (TFun name args').

    Fixpoint sim_ind2 (t t' : term) (H : sim t t') {struct H} : P t t' :=
      let go := fix go (l l' : list term) (h : Forall2 sim l l') {struct h} : Forall2 P l l' :=
        match h in Forall2 _ l l' return Forall2 P l l' with
        | Forall2_nil _ => Forall2_nil P
        | Forall2_cons x y hxy hl => Forall2_cons x y (sim_ind2 x y hxy) (go _ _ hl)
        end in
      match H in sim t t' return P t t' with
      | sim_nil => Hnil
      | sim_anon => Hanon
      | sim_atom s => Hatom s
      | sim_float f => Hfloat f
      | sim_int z => Hint z
      | sim_var id a b Hv => Hvar id a b Hv
      | sim_complex ts ts' HF => Hcomplex ts ts' HF (go ts ts' HF)
      | sim_list a a' n n' c tv Ha Hn =>
          Hlist a a' n n' c tv Ha (sim_ind2 a a' Ha) Hn (sim_ind2 n n' Hn)
      | sim_fun name args args' Hj HF => Hfun name args args' Hj HF (go args args' HF)
      end.
  End sim_ind2.

  Definition sims (s s' : subst) : Prop := Forall2 (orel sim) s s'.
  Definition simts (l l' : list term) : Prop := Forall2 sim l l'.

  (* what is related to a term of each shape *)
  Lemma sim_inv t t' : sim t t' ->
    match t with
    | TNil => t' = TNil
    | TAnon => t' = TAnon
    | TAtom s => t' = TAtom s
    | TFloat f => t' = TFloat f
    | TInt z => t' = TInt z
    | TVar id a => exists b, t' = TVar id b /\ V id a b
    | TComplex ts => exists ts', t' = TComplex ts' /\ Forall2 sim ts ts'
    | TList a n c tv => exists a' n', t' = TList a' n' c tv /\ sim a a' /\ sim n n'
    | TFun name args => exists args', t' = TFun name args' /\ nojoin name args /\ Forall2 sim args args'
    end.
  Proof. destruct 1; eauto. Qed.

  Lemma sim_var_l id a t' : sim (TVar id a) t' -> exists b, t' = TVar id b /\ V id a b.
  Proof. exact (sim_inv _ _). Qed.
  Lemma sim_var_r id b t : sim t (TVar id b) -> exists a, t = TVar id a /\ V id a b.
  Proof. inversion 1; subst; eauto. Qed.
  Lemma sim_atom_l s t' : sim (TAtom s) t' -> t' = TAtom s.
  Proof. exact (sim_inv _ _). Qed.
  Lemma sim_int_l z t' : sim (TInt z) t' -> t' = TInt z.
  Proof. exact (sim_inv _ _). Qed.
  Lemma sim_float_l f t' : sim (TFloat f) t' -> t' = TFloat f.
  Proof. exact (sim_inv _ _). Qed.
  Lemma sim_complex_l ts t' : sim (TComplex ts) t' -> exists ts', t' = TComplex ts' /\ Forall2 sim ts ts'.
  Proof. exact (sim_inv _ _). Qed.
  Lemma sim_list_l a n c tv t' : sim (TList a n c tv) t' ->
    exists a' n', t' = TList a' n' c tv /\ sim a a' /\ sim n n'.
  Proof. exact (sim_inv _ _). Qed.
  Lemma sim_fun_l name args t' : sim (TFun name args) t' ->
    exists args', t' = TFun name args' /\ nojoin name args /\ Forall2 sim args args'.
  Proof. exact (sim_inv _ _). Qed.

  Lemma sim_is_nil t t' : sim t t' -> is_nil t = is_nil t'.
  Proof. destruct 1; reflexivity. Qed.
  Lemma sim_is_anon t t' : sim t t' -> is_anon t = is_anon t'.
  Proof. destruct 1; reflexivity. Qed.
  Lemma sim_is_var t t' : sim t t' -> is_var t = is_var t'.
  Proof. destruct 1; reflexivity. Qed.
  Lemma sim_is_list t t' : sim t t' -> is_list t = is_list t'.
  Proof. destruct 1; reflexivity. Qed.
  Lemma sim_is_constant t t' : sim t t' -> is_constant t = is_constant t'.
  Proof. destruct 1; reflexivity. Qed.
  Lemma sim_constant_eq t t' : sim t t' -> is_constant t = true -> t' = t.
  Proof. destruct 1; cbn; intro; try discriminate; reflexivity. Qed.

  Lemma sim_novars_eq : forall t t', sim t t' -> novars t = true -> t' = t.
  Proof.
    intros t t' H. induction H as [| |s|f|z|id a b Hv|ts ts' HF IH|a a' n n' c tv Ha IHa Hn IHn|name args args' Hj HF IH]
      using sim_ind2; cbn [novars]; intro Hn0; try reflexivity; try discriminate.
    - now rewrite (Forall2_eq_on _ _ _ IH Hn0).
    - apply andb_true_iff in Hn0 as [H1 H2]. now rewrite (IHa H1), (IHn H2).
    - now rewrite (Forall2_eq_on _ _ _ IH Hn0).
  Qed.

  Lemma simts_novars_eq l l' : Forall2 sim l l' -> forallb novars l = true -> l' = l.
  Proof. intro H. apply Forall2_eq_on. eapply Forall2_mono; [apply sim_novars_eq|exact H]. Qed.

  Lemma sim_empty_list : sim empty_list empty_list.
  Proof. unfold empty_list. constructor; constructor. Qed.

  Lemma sims_nil : sims [] []. Proof. constructor. Qed.

  Lemma ss_get_sim s s' id : sims s s' -> orel sim (ss_get s id) (ss_get s' id).
  Proof.
    intro H. unfold ss_get. apply (orel_case _ _ _ (Forall2_nth_error _ _ _ H (N.to_nat id))); [exact I|].
    intros [t|] [t'|] Ht; exact Ht.
  Qed.

  Lemma ss_set_nat_sim : forall i s s' t t', sims s s' -> sim t t' ->
    sims (ss_set_nat s i t) (ss_set_nat s' i t').
  Proof.
    induction i as [|i IH]; intros s s' t t' Hs Ht.
    - destruct Hs; cbn; constructor; auto; constructor.
    - destruct Hs as [|x y s s' Hxy Hs]; cbn [ss_set_nat].
      + constructor; [exact I|]. apply IH; [constructor|exact Ht].
      + constructor; [exact Hxy|]. apply IH; assumption.
  Qed.

  Lemma ss_set_sim s s' id t t' : sims s s' -> sim t t' -> sims (ss_set s id t) (ss_set s' id t').
  Proof. apply ss_set_nat_sim. Qed.

  Lemma is_bound_sim t t' s s' : sim t t' -> sims s s' -> rrel eq (is_bound t s) (is_bound t' s').
  Proof.
    intros Ht Hs. destruct Ht; cbn; auto. apply (orel_case _ _ _ (ss_get_sim _ _ id Hs)); reflexivity.
  Qed.

  Lemma get_binding_sim t t' s s' : sim t t' -> sims s s' ->
    rrel (orel sim) (get_binding t s) (get_binding t' s').
  Proof. intros Ht Hs. destruct Ht; cbn; auto. apply ss_get_sim, Hs. Qed.

  Lemma get_ground_term_sim : forall fuel t t' s s', sim t t' -> sims s s' ->
    rrel (orel sim) (get_ground_term fuel t s) (get_ground_term fuel t' s').
  Proof.
    induction fuel as [|f IH]; intros t t' s s' Ht Hs;
      destruct Ht; cbn [get_ground_term]; try (cbn; now constructor);
      apply (orel_case _ _ _ (ss_get_sim _ _ id Hs)); cbn; auto.
  Qed.

  (* get_constant, get_list, get_complex on a variable: the end of the chain, if `sel` accepts it *)
  Lemma ground_sel_sim (sel : term -> option term) :
    (forall g g', sim g g' -> orel sim (sel g) (sel g')) ->
    forall fuel t t' s s', sim t t' -> sims s s' ->
    rrel (orel sim)
      (do g <- get_ground_term fuel t s; Ok (match g with Some gt => sel gt | None => None end))
      (do g <- get_ground_term fuel t' s'; Ok (match g with Some gt => sel gt | None => None end)).
  Proof.
    intros Hsel fuel t t' s s' Ht Hs.
    eapply rrel_bind_opt; [apply get_ground_term_sim; eassumption|exact I|exact Hsel].
  Qed.

  Lemma get_constant_sim fuel t t' s s' : sim t t' -> sims s s' ->
    rrel (orel sim) (get_constant fuel t s) (get_constant fuel t' s').
  Proof.
    intros Ht Hs. destruct Ht; cbn [get_constant]; try exact I; try (cbn; now constructor).
    apply (ground_sel_sim (fun g => if is_constant g then Some g else None)); [|now constructor|exact Hs].
    intros g g' Hg. rewrite <- (sim_is_constant _ _ Hg). destruct (is_constant g); cbn; auto.
  Qed.

  Lemma get_list_sim fuel t t' s s' : sim t t' -> sims s s' ->
    rrel (orel sim) (get_list fuel t s) (get_list fuel t' s').
  Proof.
    intros Ht Hs. destruct Ht; cbn [get_list]; try exact I; try (cbn; now constructor).
    apply (ground_sel_sim (fun g => if is_list g then Some g else None)); [|now constructor|exact Hs].
    intros g g' Hg. rewrite <- (sim_is_list _ _ Hg). destruct (is_list g); cbn; auto.
  Qed.

  Lemma get_complex_sim fuel t t' s s' : sim t t' -> sims s s' ->
    rrel (orel sim) (get_complex fuel t s) (get_complex fuel t' s').
  Proof.
    intros Ht Hs. destruct Ht; cbn [get_complex]; try exact I; try (cbn; now constructor).
    apply (ground_sel_sim (fun g => match g with TComplex l => Some (TComplex l) | _ => None end));
      [|now constructor|exact Hs].
    intros g g' Hg. destruct Hg; cbn; auto. now constructor.
  Qed.

  Lemma is_ground_variable_id_sim : forall fuel id s s', sims s s' ->
    rrel eq (is_ground_variable_id fuel id s) (is_ground_variable_id fuel id s').
  Proof.
    induction fuel as [|f IH]; intros id s s' Hs; cbn [is_ground_variable_id];
      apply (orel_case _ _ _ (ss_get_sim _ _ id Hs)); try reflexivity;
      intros t t' Ht; destruct Ht; cbn; auto.
  Qed.

  Lemma is_ground_variable_sim fuel t t' s s' : sim t t' -> sims s s' ->
    rrel eq (is_ground_variable fuel t s) (is_ground_variable fuel t' s').
  Proof. intros Ht Hs. destruct Ht; cbn [is_ground_variable]; try exact I. apply is_ground_variable_id_sim, Hs. Qed.
End Sim.

(* term_eqb compares names too: here an id must determine its names *)
Section Eqb.
  Variable V : vrel.
  Hypothesis Vfun : vfun V.

  Lemma terms_eqb_go l1 l2 :
    (fix go (l1 l2 : list term) : bool :=
       match l1, l2 with
       | [], [] => true
       | x :: l1', y :: l2' => term_eqb x y && go l1' l2'
       | _, _ => false
       end) l1 l2 = terms_eqb l1 l2.
  Proof. reflexivity. Qed.

  Lemma term_eqb_complex l1 l2 : term_eqb (TComplex l1) (TComplex l2) = terms_eqb l1 l2.
  Proof. cbn [term_eqb]. apply terms_eqb_go. Qed.
  Lemma term_eqb_fun f1 l1 f2 l2 : term_eqb (TFun f1 l1) (TFun f2 l2) = str_eqb f1 f2 && terms_eqb l1 l2.
  Proof. cbn [term_eqb]. now rewrite terms_eqb_go. Qed.

  Lemma terms_eqb_sim l l' :
    Forall2 (fun t t' => forall u u', sim V u u' -> term_eqb t u = term_eqb t' u') l l' ->
    forall m m', Forall2 (sim V) m m' -> terms_eqb l m = terms_eqb l' m'.
  Proof.
    induction 1 as [|x x' l l' Hx _ IH]; intros m m' Hm; destruct Hm as [|y y' m m' Hy Hm]; try reflexivity.
    cbn [terms_eqb]. now rewrite (Hx _ _ Hy), (IH _ _ Hm).
  Qed.

  Lemma term_eqb_sim : forall t t', sim V t t' -> forall u u', sim V u u' -> term_eqb t u = term_eqb t' u'.
  Proof.
    intros t t' H. induction H as [| |s|f|z|id a b Hv|ts ts' HF IH|a a' n n' c tv Ha IHa Hn IHn|name args args' Hj HF IH]
      using sim_ind2; intros u u' Hu;
      destruct Hu as [| |s2|f2|z2|id2 a2 b2 Hv2|us us' HU|b0 b0' m m' c2 tv2 Hb Hm|name2 us us' Hj2 HU];
      try reflexivity.
    - cbn [term_eqb]. destruct (N.eqb_spec id id2) as [->|Hne]; [|reflexivity].
      destruct (Vfun _ _ _ _ _ Hv Hv2) as [-> ->]. now rewrite !str_eqb_refl.
    - rewrite !term_eqb_complex. now apply terms_eqb_sim.
    - cbn [term_eqb]. now rewrite (IHa _ _ Hb), (IHn _ _ Hm).
    - rewrite !term_eqb_fun. f_equal. now apply terms_eqb_sim.
  Qed.
End Eqb.

Lemma sim_mono V V' : vle V V' -> forall t t', sim V t t' -> sim V' t t'.
Proof.
  intros Hle t t' H. induction H using sim_ind2; try (constructor; fail); try (constructor; auto; fail).
Qed.

Lemma simts_mono V V' l l' : vle V V' -> Forall2 (sim V) l l' -> Forall2 (sim V') l l'.
Proof. intro H. apply Forall2_mono. apply sim_mono, H. Qed.

Lemma sims_mono V V' s s' : vle V V' -> sims V s s' -> sims V' s s'.
Proof. intro H. apply Forall2_mono. intros a b. apply orel_mono, sim_mono, H. Qed.

Lemma vfun_le_ids V : vfun V -> forall id a b a' b', V id a b -> V id a' b' -> a = a' /\ b = b'.
Proof. intro H; exact H. Qed.

(* the relation is a partial equivalence: reflexive on terms without a `join` over variables
   (sim_refl in Proofs/NamesSearch.v) *)
Definition vflip (V : vrel) : vrel := fun id a b => V id b a.
Definition vcomp (V1 V2 : vrel) : vrel := fun id a c => exists b, V1 id a b /\ V2 id b c.

Lemma sim_sym V : forall t t', sim V t t' -> sim (vflip V) t' t.
Proof.
  intros t t' H. induction H as [| |s|f|z|id a b Hv|ts ts' HF IH|a a' n n' c tv Ha IHa Hn IHn|name args args' Hj HF IH]
    using sim_ind2; constructor; try assumption.
  - exact (Forall2_flip _ _ _ IH).
  - destruct Hj as [Hj|Hj]; [left; exact Hj|right]. now rewrite (simts_novars_eq V _ _ HF Hj).
  - exact (Forall2_flip _ _ _ IH).
Qed.

Lemma sims_sym V s s' : sims V s s' -> sims (vflip V) s' s.
Proof.
  intro H. apply (Forall2_flip (fun x y => orel (sim (vflip V)) y x)). eapply Forall2_mono; [|exact H].
  intros [x|] [y|]; cbn; auto. apply sim_sym.
Qed.

Lemma sim_trans V1 V2 : forall t u, sim V1 t u -> forall v, sim V2 u v -> sim (vcomp V1 V2) t v.
Proof.
  intros t u H. induction H as [| |s|f|z|id a b Hv|ts ts' HF IH|a a' n n' c tv Ha IHa Hn IHn|name args args' Hj HF IH]
    using sim_ind2; intros v Hv2; apply sim_inv in Hv2; try (subst v; constructor; fail).
  - destruct Hv2 as (c & -> & Hc). constructor. exists b. auto.
  - destruct Hv2 as (vs & -> & Hvs). constructor. eapply Forall2_comp; eauto.
  - destruct Hv2 as (a2 & n2 & -> & Ha2 & Hn2). constructor; auto.
  - destruct Hv2 as (vs & -> & _ & Hvs). constructor; [exact Hj|eapply Forall2_comp; eauto].
Qed.

Lemma sims_trans V1 V2 : forall s u, sims V1 s u -> forall v, sims V2 u v -> sims (vcomp V1 V2) s v.
Proof.
  intros s u H. apply Forall2_comp. eapply Forall2_mono; [|exact H].
  intros [x|] [y|] Hxy [z|] Hyz; cbn in *; try contradiction; auto. eapply sim_trans; eauto.
Qed.

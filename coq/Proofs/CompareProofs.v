(* C14 (built_in_comparison.rs) against Spec/SpecCompare.v.  The file starts with the shared facts
   about `bind` (bind_Ok) and about following bindings - `chain` of Spec/SpecCompare.v against
   get_ground_term: ggt_nonvar, ggt_or_self, chain_fun, ggt_chain, chain_ggt - which ArithProofs and
   ListProofs use as well: it is the first proof file that all their users import. *)
From Coq Require Import Lia.
From Suiron Require Import Model.Term Model.Subst Model.Compare Spec.SpecCompare.
From Flocq Require Import IEEE754.BinarySingleNaN IEEE754.Binary.
Open Scope Z_scope.

Definition op_of (op : Compare.cmpop) : SpecCompare.cmpop :=
  match op with CEq => SEq | CLt => SLt | CLe => SLe | CGt => SGt | CGe => SGe end.

Lemma bind_Ok {A B} (r : res A) (k : A -> res B) v :
  bind r k = Ok v <-> exists a, r = Ok a /\ k a = Ok v.
Proof.
  destruct r as [a| |]; cbn [bind].
  - split; [eauto|]. intros (a' & E & H). now inversion E.
  - split; [discriminate|]. intros (a' & E & _). discriminate.
  - split; [discriminate|]. intros (a' & E & _). discriminate.
Qed.

(* off variables get_ground_term is the identity, whatever the fuel *)
Lemma ggt_nonvar fuel t ss : is_var t = false -> get_ground_term fuel t ss = Ok (Some t).
Proof. destruct t, fuel; (discriminate || reflexivity). Qed.

(* so code that looks through a variable first and takes any other term as it is, is get_ground_term *)
Lemma ggt_or_self fuel t ss :
  match t with TVar _ _ => get_ground_term fuel t ss | _ => Ok (Some t) end = get_ground_term fuel t ss.
Proof. destruct t; try reflexivity; symmetry; now apply ggt_nonvar. Qed.

Lemma chain_fun ss t r1 r2 : chain ss t r1 -> chain ss t r2 -> r1 = r2.
Proof.
  intros H1; revert r2; induction H1 as [t Hv|id n Hg|id n t r Hg H IH]; intros r2 H2.
  - inversion H2; subst; try reflexivity; discriminate.
  - inversion H2; subst; try reflexivity; try discriminate. congruence.
  - inversion H2; subst; try discriminate; try congruence.
    match goal with H : ss_get ss id = Some ?x |- _ => rewrite Hg in H; inversion H; subst end.
    now apply IH.
Qed.

Lemma ggt_chain fuel : forall t ss r, get_ground_term fuel t ss = Ok r -> chain ss t r.
Proof.
  assert (forall f t ss r, is_var t = false -> get_ground_term f t ss = Ok r -> chain ss t r) as Hnv.
  { intros f t ss r Ev H. rewrite (ggt_nonvar _ _ _ Ev) in H. inversion H; subst. now constructor. }
  induction fuel as [|fuel IH]; intros t ss r H; (destruct (is_var t) eqn:Ev; [|now apply (Hnv _ _ _ _ Ev H)]);
    destruct t; try discriminate; cbn [get_ground_term] in H; destruct (ss_get ss id) eqn:E.
  - discriminate.
  - inversion H; subst. now constructor.
  - eapply chain_step; eauto.
  - inversion H; subst. now constructor.
Qed.

Lemma chain_ggt ss t r : chain ss t r -> exists fuel0, forall fuel, (fuel0 <= fuel)%nat ->
  get_ground_term fuel t ss = Ok r.
Proof.
  induction 1 as [t Hv|id n Hg|id n t r Hg H [f0 IH]].
  - exists O. intros fuel _. now apply ggt_nonvar.
  - exists O. intros fuel _. destruct fuel; simpl; now rewrite Hg.
  - exists (S f0). intros fuel Hf. destruct fuel as [|fuel]; [lia|].
    simpl. rewrite Hg. apply IH. lia.
Qed.

Lemma str_cmp_eq a b : str_cmp a b = Eq <-> a = b.
Proof.
  revert b; induction a as [|x a IH]; intros [|y b]; simpl; split; intro H;
    try reflexivity; try discriminate.
  - destruct (N.compare_spec x y); try discriminate. subst. f_equal. now apply IH.
  - inversion H; subst. rewrite N.compare_refl. now apply IH.
Qed.

Lemma str_cmp_lt a b : str_cmp a b = Lt <-> lex_lt a b.
Proof.
  revert b; induction a as [|x a IH]; intros [|y b]; simpl.
  - split; [discriminate|intro H; inversion H].
  - split; [constructor|reflexivity].
  - split; [discriminate|intro H; inversion H].
  - split; intro H.
    + destruct (N.compare_spec x y).
      * subst. apply lex_tail. now apply IH.
      * now apply lex_head.
      * discriminate.
    + inversion H; subst.
      * apply N.compare_lt_iff in H1. now rewrite H1.
      * rewrite N.compare_refl. now apply IH.
Qed.

Lemma str_cmp_antisym a b : str_cmp b a = CompOpp (str_cmp a b).
Proof.
  revert b; induction a as [|x a IH]; intros [|y b]; simpl; try reflexivity.
  rewrite (N.compare_antisym x y). destruct (N.compare x y); simpl; auto.
Qed.

Lemma str_cmp_gt a b : str_cmp a b = Gt <-> lex_lt b a.
Proof.
  rewrite <- str_cmp_lt, (str_cmp_antisym a b). destruct (str_cmp a b); simpl; split; congruence.
Qed.

Lemma cmp_holds_str op a b : cmp_holds op (str_cmp a b) = true <-> holds_str (op_of op) a b.
Proof.
  destruct op; cbn [op_of holds_str]; rewrite <- ?(str_cmp_eq a b), <- ?(str_cmp_lt a b), <- ?(str_cmp_gt a b);
    destruct (str_cmp a b); cbn [cmp_holds]; intuition congruence.
Qed.

Lemma cmp_holds_Z op a b : cmp_holds op (Z.compare a b) = true <-> holds_Z (op_of op) a b.
Proof.
  destruct op; simpl; destruct (Z.compare_spec a b) as [Hc|Hc|Hc]; simpl; split; intro H;
    try discriminate; try reflexivity; try lia.
Qed.

Lemma fcmp_holds_f64 op a b : fcmp_holds op a b = true <-> holds_f64 (op_of op) a b.
Proof.
  destruct op; simpl; unfold feqb, fltb, fleb, fgtb, fgeb, fcmp;
    destruct (Bcompare 53 1024 a b) as [[| |]|]; split; intro H;
    try discriminate; try reflexivity; intuition (try discriminate; try congruence).
Qed.

Lemma compare_constants_ordered op l r : compare_constants op l r = true <-> ordered (op_of op) l r.
Proof.
  split.
  - intro H. destruct l; try discriminate; destruct r; try discriminate; simpl in H; constructor;
      first [now apply cmp_holds_str|now apply cmp_holds_Z|now apply fcmp_holds_f64].
  - intro H. inversion H; subst; simpl;
      first [now apply cmp_holds_str|now apply cmp_holds_Z|now apply fcmp_holds_f64].
Qed.

Lemma ordered_constants op l r : ordered op l r -> is_constant l = true /\ is_constant r = true.
Proof. inversion 1; subst; split; reflexivity. Qed.

(* get_constant = the end of the chain, if it is a constant *)
Lemma get_constant_ggt fuel t ss : get_constant fuel t ss =
  do g <- get_ground_term fuel t ss;
  Ok (match g with Some gt => if is_constant gt then Some gt else None | None => None end).
Proof. destruct t; try reflexivity; now rewrite ggt_nonvar. Qed.

Lemma get_constant_chain fuel t ss c :
  get_constant fuel t ss = Ok (Some c) -> chain ss t (Some c) /\ is_constant c = true.
Proof.
  rewrite get_constant_ggt, bind_Ok. intros (g & E & H). apply ggt_chain in E.
  destruct g as [g|]; [|discriminate]. destruct (is_constant g) eqn:Ec; inversion H; subst; auto.
Qed.

Lemma get_constant_none fuel t ss :
  get_constant fuel t ss = Ok None -> forall c, chain ss t (Some c) -> is_constant c = false.
Proof.
  rewrite get_constant_ggt, bind_Ok. intros (g & E & H) c Hc. apply ggt_chain in E.
  rewrite (chain_fun _ _ _ _ E Hc) in H. destruct (is_constant c); [discriminate|reflexivity].
Qed.

Lemma bip_compare_spec fuel op a b ss r :
  bip_compare fuel op (Some [a; b]) ss = Ok r ->
  (r = Some ss /\ compare_holds (op_of op) a b ss) \/
  (r = None /\ ~ compare_holds (op_of op) a b ss).
Proof.
  unfold bip_compare, get_two_constants. intro H. apply bind_Ok in H as (two & E & H). inversion H; subst.
  apply bind_Ok in E as ([ca|] & Ea & E).
  - apply bind_Ok in E as ([cb|] & Eb & E); inversion E; subst.
    + apply get_constant_chain in Ea as [Ha _]. apply get_constant_chain in Eb as [Hb _].
      destruct (compare_constants op ca cb) eqn:Ec; [left|right]; (split; [reflexivity|]).
      * exists ca, cb. split; [exact Ha|]. split; [exact Hb|]. now apply compare_constants_ordered.
      * intros (cl & cr & Hl & Hr & Ho). apply compare_constants_ordered in Ho.
        pose proof (chain_fun _ _ _ _ Ha Hl) as E1. pose proof (chain_fun _ _ _ _ Hb Hr) as E2. congruence.
    + right. split; [reflexivity|]. intros (cl & cr & Hl & Hr & Ho).
      apply ordered_constants in Ho as [_ Hc]. rewrite (get_constant_none _ _ _ Eb _ Hr) in Hc. discriminate.
  - inversion E; subst. right. split; [reflexivity|]. intros (cl & cr & Hl & Hr & Ho).
    apply ordered_constants in Ho as [Hc _]. rewrite (get_constant_none _ _ _ Ea _ Hl) in Hc. discriminate.
Qed.

Lemma ggt_no_panic ss : forall f t, get_ground_term f t ss <> Panic.
Proof.
  induction f as [|f IHf]; intros t0; destruct t0; simpl; try discriminate;
    destruct (ss_get ss id); try discriminate. apply IHf.
Qed.

Lemma get_constant_no_panic fuel ss t : get_constant fuel t ss <> Panic.
Proof.
  rewrite get_constant_ggt. pose proof (ggt_no_panic ss fuel t).
  destruct (get_ground_term fuel t ss); [discriminate|contradiction|discriminate].
Qed.

Lemma get_constant_terminates ss t r : chain ss t r -> exists fuel0, forall fuel,
  (fuel0 <= fuel)%nat -> exists c, get_constant fuel t ss = Ok c.
Proof.
  intro H. destruct (chain_ggt _ _ _ H) as [f0 Hf]. exists f0. intros fuel Hle.
  rewrite get_constant_ggt, (Hf fuel Hle). cbn. eauto.
Qed.

Lemma bip_compare_terminates op a b ss ra rb :
  chain ss a ra -> chain ss b rb ->
  exists fuel r, bip_compare fuel op (Some [a; b]) ss = Ok r.
Proof.
  intros Ha Hb. destruct (get_constant_terminates _ _ _ Ha) as [fa Hfa].
  destruct (get_constant_terminates _ _ _ Hb) as [fb Hfb].
  exists (Nat.max fa fb). unfold bip_compare, get_two_constants.
  destruct (Hfa (Nat.max fa fb)) as [ca ->]; [lia|].
  destruct (Hfb (Nat.max fa fb)) as [cb Ecb]; [lia|].
  destruct ca as [ca|]; cbn; [rewrite Ecb; destruct cb|]; cbn; eauto.
Qed.

(* C19 at term level: print-then-parse gives the term back, for the canonical terms:
     atoms           [A-Za-z0-9_] at both ends, [A-Za-z0-9_ ] between, not all digits
                     (`wide_atom`; the atoms [a-z][A-Za-z0-9_]* are among them)
     integers        64-bit
     variables       $[A-Za-z][A-Za-z0-9_]* with id 0, and the anonymous variable $_
     complex terms   f(t1, ..., tn), n >= 0, f an atom [a-z][A-Za-z0-9_]* other than join, add, subtract,
                     multiply, divide; the ti canonical; the text at most 1000 characters
     lists           [t1, ..., tn], n >= 0, and [t1, ..., tn | $V], [t1, ..., tn | $_], n >= 1, well formed in the
                     sense of Spec/SpecLists.v (`elems`), the ti canonical
   Floats are not covered.  What is outside is outside for a reason: see the examples at the
   end of this file and of Proofs/TermRoundtrip.v, Proofs/TermRoundtripComplex.v. *)
From Coq Require Import Lia String.
From Suiron Require Import Model.ParseTerm Model.Show Spec.SpecLists Proofs.ListProofs.
From Suiron Require Import Proofs.ParseTermProofs Proofs.ParseRoundtrip.
From Suiron Require Import Proofs.TermRoundtrip Proofs.TermRoundtripText Proofs.TermRoundtripComplex.
Open Scope N_scope.

Inductive canonical : term -> Prop :=
| can_atom s : wide_atom s = true -> canonical (TAtom s)
| can_int z : i64_range z -> canonical (TInt z)
| can_var name : simple_var name = true -> canonical (TVar 0 name)
| can_anon : canonical TAnon
| can_complex f ts :
    functor_name f = true -> (forall t, In t ts -> canonical t) ->
    (length (show_term (TComplex (TAtom f :: ts))) <= 1000)%nat ->
    canonical (TComplex (TAtom f :: ts))
| can_list l ts :
    elems l = Some (ts, None) -> (forall t, In t ts -> canonical t) -> canonical l
| can_list_tail l ts name :
    elems l = Some (ts, Some (TVar 0 name)) -> ts <> [] -> (forall t, In t ts -> canonical t) ->
    simple_var name = true -> canonical l
| can_list_anon l ts :
    elems l = Some (ts, Some TAnon) -> ts <> [] -> (forall t, In t ts -> canonical t) -> canonical l.

(* the list view determines the nodes *)
Lemma elems_nodes : forall l xs tl, elems l = Some (xs, tl) ->
  l = list_nodes xs (match tl with None => empty_list | Some v => tail_node v end).
Proof.
  intros l xs tl H. apply elems_Elems in H. induction H as [|v Hv|x nx xs tl Hx _ IH]; try reflexivity.
  unfold list_nodes in *. cbn [fold_right]. now rewrite <- IH.
Qed.

Lemma elems_non_nil : forall l xs tl, elems l = Some (xs, tl) -> non_nil_terms xs.
Proof.
  intros l xs tl H. apply elems_Elems in H. induction H; constructor; assumption.
Qed.

Lemma join_length_ge sep ps p : In p ps -> (length p <= length (join_strs sep ps))%nat.
Proof.
  induction ps as [|q ps IH]; intros Hin; [contradiction|].
  destruct ps as [|q2 ps'].
  - destruct Hin as [->|[]]. cbn [join_strs]. lia.
  - rewrite join_strs_cons2, !app_length. destruct Hin as [->|Hin]; [lia|].
    specialize (IH Hin). eapply Nat.le_trans; [exact IH|]. apply Nat.le_trans with (length sep + length (join_strs sep (q2 :: ps')))%nat; [apply Nat.le_add_l|apply Nat.le_add_l].
Qed.

Definition roundtrips (t : term) : Prop :=
  forall fuel, (parse_fuel (show_term t) <= fuel)%nat -> parse_term fuel (show_term t) = Ok (POk t).

(* what the induction carries: the text is good, the term is not TNil, the text is read back *)
Definition facts (t : term) : Prop := good (show_term t) /\ is_nil t = false /\ roundtrips t.

Lemma roundtrips_leaf t : (forall fuel, parse_term (S fuel) (show_term t) = Ok (POk t)) -> roundtrips t.
Proof. intros H [|fuel] Hf; [unfold parse_fuel in Hf; lia|apply H]. Qed.

(* a term whose text holds the joined texts of ts and two more characters at least: one unit of
   fuel for the term, the rest suffices for every member of ts *)
Lemma roundtrips_node t ts :
  (2 + length (join_strs sep_comma (map show_term ts)) <= length (show_term t))%nat ->
  (forall fuel, Forall (fun x => parse_term fuel (show_term x) = Ok (POk x)) ts ->
                parse_term (S fuel) (show_term t) = Ok (POk t)) ->
  (forall x, In x ts -> facts x) -> roundtrips t.
Proof.
  intros Hlen Hp IH [|fuel] Hf; unfold parse_fuel in Hf; [lia|].
  apply Hp, Forall_forall. intros x Hx. apply (IH x Hx). unfold parse_fuel.
  pose proof (join_length_ge sep_comma _ _ (in_map show_term ts x Hx)). lia.
Qed.

Lemma facts_good ts : (forall t, In t ts -> facts t) -> Forall (fun t => good (show_term t)) ts.
Proof. intros H. apply Forall_forall. intros t Ht. apply (H t Ht). Qed.

(* lists: tl is nothing, or a term that the `|` branch of the parser reads back *)
Lemma list_facts l ts tl :
  elems l = Some (ts, tl) -> (forall t, In t ts -> facts t) ->
  match tl with
  | None => True
  | Some v => ts <> [] /\ is_nil v = false /\ word (show_term v) /\ tail_parse (show_term v) = POk v
  end -> facts l.
Proof.
  intros He IH Htl. pose proof (elems_non_nil l ts tl He) as Hnn.
  rewrite (elems_nodes l ts tl He). pose proof (facts_good ts IH) as Hg.
  destruct tl as [v|]; cbv iota.
  - destruct Htl as (Hne & Hv & Hw & Hp). split; [|split].
    + rewrite show_list_tail by assumption.
      apply good_list_bar; [now apply Forall_map_good|now apply good_word].
    + destruct ts; [now elim Hne|reflexivity].
    + apply (roundtrips_node _ ts); [|intros fuel Hf; now apply parse_term_show_list_tail|exact IH].
      rewrite show_list_tail by assumption. unfold list_text_bar. cbn [length].
      rewrite !app_length. cbn [length]. lia.
  - rewrite <- make_list_of_terms_nodes. split; [|split].
    + rewrite show_list_plain by exact Hnn. apply good_list. now apply Forall_map_good.
    + destruct ts; reflexivity.
    + apply (roundtrips_node _ ts); [|intros fuel Hf; now apply parse_term_show_list|exact IH].
      rewrite show_list_plain by exact Hnn. unfold list_text. cbn [length].
      rewrite app_length. cbn [length]. lia.
Qed.

Lemma canonical_facts t : canonical t -> facts t.
Proof.
  induction 1 as [s Hs|z Hz|name Hn| |f ts Hf Hts IH Hlen|l ts He Hts IH|l ts name He Hne Hts IH Hn
                  |l ts He Hne Hts IH].
  - split; [now apply good_wide_atom|]. split; [reflexivity|].
    apply roundtrips_leaf. intros fuel. now apply parse_term_show_wide_atom.
  - split; [apply good_word, show_Z_word|]. split; [reflexivity|].
    apply roundtrips_leaf. intros fuel. now apply parse_term_show_int.
  - split; [apply good_word; now apply simple_var_word|]. split; [reflexivity|].
    apply roundtrips_leaf. intros fuel. now apply parse_term_show_var.
  - split; [apply good_word, anon_word|]. split; [reflexivity|].
    apply roundtrips_leaf, parse_term_show_anon.
  - pose proof (facts_good ts IH) as Hg.
    split; [|split; [reflexivity|]].
    + rewrite show_complex_text. apply good_call; [|now apply Forall_map_good].
      apply simple_atom_word. unfold functor_name in Hf. now apply andb_true_iff in Hf as [Hf _].
    + apply (roundtrips_node _ ts); [|intros fuel Hp; now apply parse_term_show_complex|exact IH].
      rewrite show_complex_text. unfold call_text. rewrite app_length. cbn [length].
      rewrite app_length. cbn [length]. lia.
  - now apply (list_facts l ts None).
  - apply (list_facts l ts (Some (TVar 0 name))); [exact He|exact IH|].
    split; [exact Hne|]. split; [reflexivity|].
    split; [now apply simple_var_word|now apply tail_parse_var].
  - apply (list_facts l ts (Some TAnon)); [exact He|exact IH|].
    split; [exact Hne|]. split; [reflexivity|]. split; [apply anon_word|reflexivity].
Qed.

Theorem parse_term_show_canonical : forall t fuel,
  canonical t -> (parse_fuel (show_term t) <= fuel)%nat ->
  parse_term fuel (show_term t) = Ok (POk t).
Proof. intros t fuel H. now apply (canonical_facts t H). Qed.

(* the lists of the constructors are canonical *)
Lemma non_nil_canonical ts : (forall t, In t ts -> canonical t) -> non_nil ts.
Proof.
  intros H. apply Forall_forall. intros t Ht. apply (canonical_facts t (H t Ht)).
Qed.

Theorem canonical_make_list_of_terms ts :
  (forall t, In t ts -> canonical t) -> canonical (make_list_of_terms ts).
Proof.
  intros H. apply (can_list _ ts); [|exact H].
  apply make_list_of_terms_spec. now apply non_nil_canonical.
Qed.

(* make_linked_list(false, [t1 ... tn]), the last term not itself a list (a trailing list is
   spliced in by this constructor) *)
Theorem canonical_make_linked_list ts last :
  (forall t, In t (ts ++ [last]) -> canonical t) -> is_list last = false ->
  canonical (make_linked_list false (ts ++ [last])).
Proof.
  intros H Hl.
  assert (Hnn : non_nil (ts ++ [last])) by (now apply non_nil_canonical).
  apply Forall_app in Hnn as [Hn1 Hn2]. inversion Hn2 as [|x l Hlast _]; subst.
  apply (can_list _ (ts ++ [last])); [|exact H].
  destruct ts as [|t0 ts'] eqn:Ets.
  - cbn [app]. apply (mll_single false last Hlast).
  - rewrite <- Ets in *. apply (mll_plain false ts last); try assumption. rewrite Ets. discriminate.
Qed.

(* make_linked_list(true, [t1 ... tn, $V]), n >= 1 *)
Theorem canonical_make_linked_list_tail ts v :
  ts <> [] -> (forall t, In t ts -> canonical t) -> simple_var v = true ->
  canonical (make_linked_list true (ts ++ [TVar 0 v])).
Proof.
  intros Hne H Hv.
  apply (can_list_tail _ ts v); [|exact Hne|exact H|exact Hv].
  apply (mll_plain true ts (TVar 0 v)); try reflexivity; [exact Hne|now apply non_nil_canonical].
Qed.

(* make_linked_list(true, [t1 ... tn, $_]), n >= 1 *)
Theorem canonical_make_linked_list_anon ts :
  ts <> [] -> (forall t, In t ts -> canonical t) ->
  canonical (make_linked_list true (ts ++ [TAnon])).
Proof.
  intros Hne H.
  apply (can_list_anon _ ts); [|exact Hne|exact H].
  apply (mll_plain true ts TAnon); try reflexivity; [exact Hne|now apply non_nil_canonical].
Qed.

(* `[a | $_]`: the anonymous variable as a tail was rejected by the parser until the repair 5e5ae04
   (found by this proof work); it now reads back, and is in `canonical` (can_list_anon). *)
Example list_anon_tail_reads_back :
  parse_term 10 (show_term (make_linked_list true [TAtom [97]; TAnon])) =
  Ok (POk (make_linked_list true [TAtom [97]; TAnon])).
Proof. vm_compute. reflexivity. Qed.

(* a list that consists of a tail variable only is printed as `[$T]` *)
Example list_only_tail_not_read_back :
  parse_term 10 (show_term (make_linked_list true [TVar 0 (s2l "$T")])) =
  Ok (POk (make_linked_list false [TVar 0 (s2l "$T")])).
Proof. vm_compute. reflexivity. Qed.

(* a concrete canonical term: f(g(a, $X), [1, -2 | $T], [], $_) *)
Example canonical_example :
  let t := TComplex [TAtom [102];
             TComplex [TAtom [103]; TAtom [97]; TVar 0 (s2l "$X")];
             make_linked_list true [TInt 1; TInt (-2); TVar 0 (s2l "$T")];
             make_list_of_terms [];
             TAnon] in
  parse_term (parse_fuel (show_term t)) (show_term t) = Ok (POk t).
Proof. vm_compute. reflexivity. Qed.

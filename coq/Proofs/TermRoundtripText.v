(* C19 at term level, part 2: the texts.  `good s` collects what the scanning loops of the
   parsers need to know about the text of a term: how it starts and ends, that the scan for
   an arithmetic infix finds nothing, that the forward scan of parse_arguments and the
   backward scan of parse_linked_list cross it without seeing a separator (brackets are
   balanced and commas and bars are inside them), that parentheses are balanced in number.
   Words are good; `f(p1, ..., pn)`, `[p1, ..., pn]` and `[p1, ..., pn | v]` are good when the
   pieces are.  The texts printed for complex terms and for lists are of this form. *)
From Coq Require Import Lia String.
From Suiron Require Import Model.ParseTerm Model.Show Proofs.ParseTermProofs Proofs.ParseRoundtrip.
From Suiron Require Import Proofs.TermRoundtrip.
Open Scope N_scope.

Definition tchar (c : N) : bool :=
  wchar c || (c =? 32) || (c =? c_comma) || (c =? c_bar) ||
  (c =? c_lpar) || (c =? c_rpar) || (c =? c_lbr) || (c =? c_rbr).

Lemma tchar_cases c : tchar c = true ->
  wchar c = true \/ c = 32 \/ c = c_comma \/ c = c_bar \/ c = c_lpar \/ c = c_rpar \/ c = c_lbr \/ c = c_rbr.
Proof.
  unfold tchar. intros H.
  destruct (wchar c); [now left|right]. destruct (N.eqb_spec c 32); [now left|right].
  destruct (N.eqb_spec c c_comma); [now left|right]. destruct (N.eqb_spec c c_bar); [now left|right].
  destruct (N.eqb_spec c c_lpar); [now left|right]. destruct (N.eqb_spec c c_rpar); [now left|right].
  destruct (N.eqb_spec c c_lbr); [now left|right]. destruct (N.eqb_spec c c_rbr); [assumption|discriminate].
Qed.

Lemma wchar_tchar c : wchar c = true -> tchar c = true.
Proof. intros H. unfold tchar. now rewrite H. Qed.

Lemma tchar_not_bslash c : tchar c = true -> (c =? c_bslash) = false.
Proof. intros H. now apply (class_neq tchar). Qed.

Lemma tchar_not_dquote c : tchar c = true -> (c =? c_dquote) = false.
Proof. intros H. now apply (class_neq tchar). Qed.

(* The forward scan of parse_arguments and the backward scan of parse_linked_list are instances
   of one scan: square brackets so/sc and round brackets ro/rc change the depth, a character
   of `stop` ends the scan at depth 0.  Read backward, the closing bracket opens. *)
Section DepthScan.
  Variables so sc ro rc : N.
  Variable stop : N -> bool.

  Fixpoint dscan (s : str) (rd sd : Z) : option (Z * Z) :=
    match s with
    | [] => Some (rd, sd)
    | c :: tl =>
        if c =? so then dscan tl rd (sd + 1)%Z
        else if c =? sc then dscan tl rd (sd - 1)%Z
        else if c =? ro then dscan tl (rd + 1)%Z sd
        else if c =? rc then dscan tl (rd - 1)%Z sd
        else if ((rd =? 0) && (sd =? 0))%Z && stop c then None
        else dscan tl rd sd
    end.

  Lemma dscan_app a b : forall rd sd,
    dscan (a ++ b) rd sd =
    match dscan a rd sd with Some (rd', sd') => dscan b rd' sd' | None => None end.
  Proof.
    induction a as [|c a IH]; intros rd sd; [reflexivity|]. cbn [app dscan].
    destruct (c =? so); [apply IH|]. destruct (c =? sc); [apply IH|].
    destruct (c =? ro); [apply IH|]. destruct (c =? rc); [apply IH|].
    destruct (((rd =? 0) && (sd =? 0))%Z && stop c); [reflexivity|apply IH].
  Qed.

  (* the scan crosses s at any depth / at any depth but the top one *)
  Definition d_cross (s : str) : Prop := forall rd sd, (0 <= rd)%Z -> (0 <= sd)%Z ->
    dscan s rd sd = Some (rd, sd).
  Definition d_cross_in (s : str) : Prop := forall rd sd, (0 <= rd)%Z -> (0 <= sd)%Z ->
    (0 < rd \/ 0 < sd)%Z -> dscan s rd sd = Some (rd, sd).

  Lemma d_cross_any_in s : d_cross s -> d_cross_in s.
  Proof. intros H rd sd H1 H2 _. now apply H. Qed.

  Lemma d_cross_in_app a b : d_cross_in a -> d_cross_in b -> d_cross_in (a ++ b).
  Proof. intros Ha Hb rd sd H1 H2 H3. rewrite dscan_app, Ha by assumption. now apply Hb. Qed.

  Lemma d_cross_app a b : d_cross a -> d_cross b -> d_cross (a ++ b).
  Proof. intros Ha Hb rd sd H1 H2. rewrite dscan_app, Ha by assumption. now apply Hb. Qed.

  Definition bracket (c : N) : bool := (c =? so) || (c =? sc) || (c =? ro) || (c =? rc).

  Lemma dscan_no_bracket c tl rd sd : bracket c = false ->
    dscan (c :: tl) rd sd = if ((rd =? 0) && (sd =? 0))%Z && stop c then None else dscan tl rd sd.
  Proof.
    unfold bracket. intros H. apply orb_false_iff in H as [H E4]. apply orb_false_iff in H as [H E3].
    apply orb_false_iff in H as [E1 E2]. cbn [dscan]. now rewrite E1, E2, E3, E4.
  Qed.

  (* below the top, every character that is not a bracket is passed *)
  Lemma d_cross_in_chars s : Forall (fun c => bracket c = false) s -> d_cross_in s.
  Proof.
    induction 1 as [|c s Hc _ IH]; intros rd sd H1 H2 H3; [reflexivity|].
    rewrite (dscan_no_bracket c s rd sd Hc).
    assert (E : ((rd =? 0) && (sd =? 0))%Z = false).
    { destruct H3; [assert (E : (rd =? 0)%Z = false)|assert (E : (sd =? 0)%Z = false)];
        try (apply Z.eqb_neq; lia); rewrite E; [reflexivity|apply andb_false_r]. }
    rewrite E. now apply IH.
  Qed.

  Lemma d_cross_chars s : Forall (fun c => bracket c || stop c = false) s -> d_cross s.
  Proof.
    induction 1 as [|c s Hc _ IH]; intros rd sd H1 H2; [reflexivity|].
    apply orb_false_iff in Hc as [Hb Hs].
    rewrite (dscan_no_bracket c s rd sd Hb), Hs, andb_false_r. now apply IH.
  Qed.

  Hypothesis sc_so : (sc =? so) = false.
  Hypothesis ro_so : (ro =? so) = false.
  Hypothesis ro_sc : (ro =? sc) = false.
  Hypothesis rc_so : (rc =? so) = false.
  Hypothesis rc_sc : (rc =? sc) = false.
  Hypothesis rc_ro : (rc =? ro) = false.

  Lemma d_cross_square body : d_cross_in body -> d_cross (so :: body ++ [sc]).
  Proof.
    intros Hb rd sd H1 H2. cbn [dscan]. rewrite N.eqb_refl, dscan_app, Hb by lia.
    cbn [dscan]. rewrite sc_so, N.eqb_refl. now replace (sd + 1 - 1)%Z with sd by lia.
  Qed.

  Lemma d_cross_round body : d_cross_in body -> d_cross (ro :: body ++ [rc]).
  Proof.
    intros Hb rd sd H1 H2. cbn [dscan]. rewrite ro_so, ro_sc, N.eqb_refl, dscan_app, Hb by lia.
    cbn [dscan]. rewrite rc_so, rc_sc, rc_ro, N.eqb_refl. now replace (rd + 1 - 1)%Z with rd by lia.
  Qed.
End DepthScan.

(* the forward scan, which is pa_scan outside quotes, and the backward scan, which runs over
   the reversed text *)
Definition fstop (c : N) : bool := (c =? c_comma) || (c =? c_bslash) || (c =? c_dquote).
Definition bstop (c : N) : bool := (c =? c_dquote) || (c =? c_comma) || (c =? c_bar).
Definition fscan : str -> Z -> Z -> option (Z * Z) := dscan c_lbr c_rbr c_lpar c_rpar fstop.
Definition bscan : str -> Z -> Z -> option (Z * Z) := dscan c_rbr c_lbr c_rpar c_lpar bstop.

Lemma pa_scan_fscan s : forall rest nq rd sd rd' sd',
  fscan s rd sd = Some (rd', sd') ->
  pa_scan (s ++ rest) false nq rd sd = pa_scan rest false nq rd' sd'.
Proof.
  induction s as [|c s IH]; intros rest nq rd sd rd' sd' H; [now inversion H|].
  cbn [fscan dscan] in H. cbn [app pa_scan].
  destruct (c =? c_lbr); [now apply IH|]. destruct (c =? c_rbr); [now apply IH|].
  destruct (c =? c_lpar); [now apply IH|]. destruct (c =? c_rpar); [now apply IH|].
  destruct ((rd =? 0)%Z && (sd =? 0)%Z); [|now apply IH]. unfold fstop in H. cbn [andb] in H.
  destruct (c =? c_comma); [discriminate|]. destruct (c =? c_bslash); [discriminate|].
  destruct (c =? c_dquote); [discriminate|]. now apply IH.
Qed.

(* both scans cross s: at any depth / at any depth but the top one *)
Definition crossed (s : str) : Prop :=
  d_cross c_lbr c_rbr c_lpar c_rpar fstop s /\ d_cross c_rbr c_lbr c_rpar c_lpar bstop (rev s).
Definition crossed_in (s : str) : Prop :=
  d_cross_in c_lbr c_rbr c_lpar c_rpar fstop s /\ d_cross_in c_rbr c_lbr c_rpar c_lpar bstop (rev s).

Lemma crossed_crossed_in s : crossed s -> crossed_in s.
Proof. intros [F B]. split; now apply d_cross_any_in. Qed.

Lemma crossed_in_app a b : crossed_in a -> crossed_in b -> crossed_in (a ++ b).
Proof.
  intros [Fa Ba] [Fb Bb]. split; [now apply d_cross_in_app|]. rewrite rev_app_distr. now apply d_cross_in_app.
Qed.

Lemma crossed_app a b : crossed a -> crossed b -> crossed (a ++ b).
Proof.
  intros [Fa Ba] [Fb Bb]. split; [now apply d_cross_app|]. rewrite rev_app_distr. now apply d_cross_app.
Qed.

Lemma crossed_in_sep_comma : crossed_in sep_comma.
Proof. split; apply d_cross_in_chars; repeat constructor. Qed.

Lemma crossed_in_sep_bar : crossed_in sep_bar.
Proof. split; apply d_cross_in_chars; repeat constructor. Qed.

(* the characters of words and the blank: none of them matters to a scan *)
Definition pchar (c : N) : bool := wchar c || (c =? 32).

Lemma crossed_pchars s : Forall (fun c => pchar c = true) s -> crossed s.
Proof.
  intros H. split; apply d_cross_chars; [|apply Forall_rev]; (eapply Forall_impl; [|exact H]);
    intros c Hc; unfold bracket, fstop, bstop;
    rewrite !(class_neq pchar c _ Hc) by reflexivity; reflexivity.
Qed.

Lemma rev_enclosed {A} (x y : A) b : rev (x :: b ++ [y]) = y :: rev b ++ [x].
Proof. cbn [rev]. now rewrite rev_app_distr. Qed.

Lemma crossed_round body : crossed_in body -> crossed (c_lpar :: body ++ [c_rpar]).
Proof. intros [F B]. split; [|rewrite rev_enclosed]; now apply d_cross_round. Qed.

Lemma crossed_square body : crossed_in body -> crossed (c_lbr :: body ++ [c_rbr]).
Proof. intros [F B]. split; [|rewrite rev_enclosed]; now apply d_cross_square. Qed.

Lemma count_c_app c a b : count_c c (a ++ b) = count_c c a + count_c c b.
Proof. induction a as [|x a IH]; cbn [app count_c]; [reflexivity|]. rewrite IH. lia. Qed.

Lemma count_c_notin (P : N -> bool) c w :
  P c = false -> Forall (fun x => P x = true) w -> count_c c w = 0.
Proof.
  intros Hc. induction 1 as [|x w Hx _ IH]; [reflexivity|]. cbn [count_c]. rewrite IH.
  now rewrite (class_neq P x c Hx Hc).
Qed.

Lemma count_c_wchars c w : wchar c = false -> Forall (fun c => wchar c = true) w -> count_c c w = 0.
Proof. apply count_c_notin. Qed.

(* g_lastc, g_lastm, g_opfree: a piece is followed by `, ` or ` | ` or `)`; it must not end in a
   comma (parse_arguments) nor in `-`, which with the blank after it would read as an infix.
   g_opfree holds whatever the character before the piece is, since a piece does not start with a
   blank; a text between brackets (`inner` below) may start with one (` | `), so there the
   character before it must not be `-`. *)
Record good (s : str) : Prop := mkGood {
  g_ne : s <> [];
  g_hdw : is_white (hd 0 s) = false;
  g_lastw : is_white (last s 0) = false;
  g_lastc : last s 0 <> c_comma;
  g_lastm : last s 0 <> c_minus;
  g_chars : Forall (fun c => tchar c = true) s;
  g_opfree : forall p, opfree p s = true;
  g_scan : crossed s;
  g_bal : count_c c_lpar s = count_c c_rpar s }.

Lemma wchar_pchar c : wchar c = true -> pchar c = true.
Proof. intros H. unfold pchar. now rewrite H. Qed.

Lemma pchar_tchar c : pchar c = true -> tchar c = true.
Proof.
  unfold pchar, tchar. intros H. apply orb_true_iff in H as [H|H]; rewrite H; [reflexivity|].
  now rewrite orb_true_r.
Qed.

(* a text of word characters and blanks, with word characters at both ends *)
Lemma good_plain s :
  s <> [] -> Forall (fun c => pchar c = true) s -> wchar (hd 0 s) = true -> wchar (last s 0) = true ->
  last s 0 <> c_minus -> (forall p, opfree p s = true) -> good s.
Proof.
  intros Hne Hall Hh Hl Hm Hcs. constructor; try assumption.
  - now apply wchar_not_white.
  - now apply wchar_not_white.
  - intros E. rewrite E in Hl. discriminate Hl.
  - eapply Forall_impl; [|exact Hall]. exact pchar_tchar.
  - now apply crossed_pchars.
  - now rewrite !(count_c_notin pchar _ s) by (reflexivity || assumption).
Qed.

Lemma good_word w : word w -> good w.
Proof.
  intros Hw. pose proof Hw as (Hne & Hall & Hm).
  apply good_plain; [exact Hne| |now apply word_hd|now apply word_last|exact Hm|].
  - eapply Forall_impl; [|exact Hall]. exact wchar_pchar.
  - intros p. now apply opfree_wchars.
Qed.

Lemma good_trimmed s : good s -> trim s = s.
Proof. intros H. apply trimmed_trim. right. split; [apply (g_hdw s H)|apply (g_lastw s H)]. Qed.

Lemma good_hd_tchar s : good s -> tchar (hd 0 s) = true.
Proof.
  intros H. pose proof (g_ne s H) as Hne. pose proof (g_chars s H) as Hc.
  destruct s; [now elim Hne|]. now inversion Hc.
Qed.

(* what holds of the text between brackets *)
Record inner (s : str) : Prop := mkInner {
  i_chars : Forall (fun c => tchar c = true) s;
  i_opfree : forall p, p <> c_minus -> opfree p s = true;
  i_lastm : forall d, d <> c_minus -> last s d <> c_minus;
  i_scan : crossed_in s;
  i_bal : count_c c_lpar s = count_c c_rpar s }.

Lemma last_default_ne {A} (l : list A) d d' : l <> [] -> last l d = last l d'.
Proof. apply last_default. Qed.

Lemma inner_nil : inner [].
Proof.
  constructor; try reflexivity.
  - constructor.
  - intros d Hd. exact Hd.
  - split; intros rd sd _ _ _; reflexivity.
Qed.

Lemma inner_good s : good s -> inner s.
Proof.
  intros H. constructor.
  - apply (g_chars s H).
  - intros p _. apply (g_opfree s H).
  - intros d _. rewrite (last_default s d 0) by apply (g_ne s H). apply (g_lastm s H).
  - apply crossed_crossed_in, (g_scan s H).
  - apply (g_bal s H).
Qed.

Lemma inner_app a b : inner a -> inner b -> inner (a ++ b).
Proof.
  intros Ha Hb. constructor.
  - apply Forall_app. split; [apply (i_chars a Ha)|apply (i_chars b Hb)].
  - intros p Hp. rewrite opfree_app. rewrite (i_opfree a Ha p Hp). cbn [andb].
    apply (i_opfree b Hb). now apply (i_lastm a Ha).
  - intros d Hd. rewrite last_app_any. apply (i_lastm b Hb). now apply (i_lastm a Ha).
  - apply crossed_in_app; [apply (i_scan a Ha)|apply (i_scan b Hb)].
  - rewrite !count_c_app. rewrite (i_bal a Ha), (i_bal b Hb). reflexivity.
Qed.

Lemma inner_sep_comma : inner sep_comma.
Proof.
  constructor.
  - repeat constructor.
  - intros p Hp. cbn [sep_comma opfree].
    change (44 =? c_plus) with false. change (44 =? c_star) with false. change (44 =? c_slash) with false.
    change (44 =? 32) with false. change (32 =? c_plus) with false. change (32 =? c_star) with false.
    change (32 =? c_slash) with false. change (44 =? c_minus) with false.
    rewrite andb_false_r. reflexivity.
  - intros d _. cbn. discriminate.
  - apply crossed_in_sep_comma.
  - reflexivity.
Qed.

Lemma inner_sep_bar : inner sep_bar.
Proof.
  constructor.
  - repeat constructor.
  - intros p Hp. cbn [sep_bar opfree].
    change (32 =? c_plus) with false. change (32 =? c_star) with false. change (32 =? c_slash) with false.
    change (124 =? c_plus) with false. change (124 =? c_star) with false. change (124 =? c_slash) with false.
    change (124 =? 32) with false. change (124 =? c_minus) with false. change (32 =? c_minus) with false.
    change (32 =? 32) with true.
    apply N.eqb_neq in Hp. rewrite Hp. reflexivity.
  - intros d _. cbn. discriminate.
  - apply crossed_in_sep_bar.
  - reflexivity.
Qed.

Lemma join_strs_cons2 sep p q rest :
  join_strs sep (p :: q :: rest) = p ++ sep ++ join_strs sep (q :: rest).
Proof. reflexivity. Qed.

Lemma inner_join ps : Forall good ps -> inner (join_strs sep_comma ps).
Proof.
  induction ps as [|p ps IH]; intros H; [apply inner_nil|].
  inversion H as [|x l Hp Hps]; subst.
  destruct ps as [|q rest]; [cbn [join_strs]; now apply inner_good|].
  rewrite join_strs_cons2. apply inner_app; [now apply inner_good|].
  apply inner_app; [apply inner_sep_comma|now apply IH].
Qed.

Definition call_text (f : str) (ps : list str) : str :=
  f ++ c_lpar :: join_strs sep_comma ps ++ [c_rpar].
Definition list_text (ps : list str) : str := c_lbr :: join_strs sep_comma ps ++ [c_rbr].
Definition list_text_bar (ps : list str) (v : str) : str :=
  c_lbr :: (join_strs sep_comma ps ++ sep_bar ++ v) ++ [c_rbr].

Lemma last_snoc {A} (l : list A) x d : last (l ++ [x]) d = x.
Proof. apply last_last. Qed.

Lemma opfree_single p c :
  (c =? c_plus) = false -> (c =? c_star) = false -> (c =? c_slash) = false -> (c =? 32) = false ->
  opfree p [c] = true.
Proof. intros E1 E2 E3 E4. cbn [opfree]. rewrite E1, E2, E3, E4. now rewrite andb_false_r. Qed.

Lemma good_enclosed (o c : N) (body : str) :
  (o = c_lpar /\ c = c_rpar) \/ (o = c_lbr /\ c = c_rbr) -> inner body -> good (o :: body ++ [c]).
Proof.
  intros Hoc Hb.
  assert (Ho : (o =? c_plus) = false /\ (o =? c_star) = false /\ (o =? c_slash) = false /\
               (o =? 32) = false /\ is_white o = false /\ tchar o = true /\ o <> c_minus).
  { destruct Hoc as [[-> _]|[-> _]]; repeat split; discriminate. }
  assert (Hc : (c =? c_plus) = false /\ (c =? c_star) = false /\ (c =? c_slash) = false /\
               (c =? 32) = false /\ is_white c = false /\ tchar c = true /\ c <> c_minus /\ c <> c_comma).
  { destruct Hoc as [[_ ->]|[_ ->]]; repeat split; discriminate. }
  destruct Ho as (Ho1 & Ho2 & Ho3 & Ho4 & Ho5 & Ho6 & Ho7).
  destruct Hc as (Hc1 & Hc2 & Hc3 & Hc4 & Hc5 & Hc6 & Hc7 & Hc8).
  assert (Hlast : last (o :: body ++ [c]) 0 = c).
  { change (o :: body ++ [c]) with ((o :: body) ++ [c]). apply last_last. }
  constructor; rewrite ?Hlast; try assumption.
  - discriminate.
  - constructor; [exact Ho6|]. apply Forall_app. split; [apply (i_chars body Hb)|].
    constructor; [exact Hc6|constructor].
  - intros p. change (o :: body ++ [c]) with ([o] ++ body ++ [c]).
    rewrite opfree_app, opfree_app. rewrite (opfree_single p o) by assumption. cbn [last andb].
    rewrite (i_opfree body Hb o Ho7). cbn [andb]. now apply opfree_single.
  - destruct Hoc as [[-> ->]|[-> ->]]; [apply crossed_round|apply crossed_square]; apply (i_scan body Hb).
  - change (o :: body ++ [c]) with ([o] ++ body ++ [c]). rewrite !count_c_app.
    rewrite (i_bal body Hb). destruct Hoc as [[-> ->]|[-> ->]]; vm_compute (count_c _ [_]); lia.
Qed.

Lemma good_app a b : good a -> good b -> good (a ++ b).
Proof.
  intros Ha Hb. pose proof (g_ne a Ha) as Hna.
  assert (Hl : last (a ++ b) 0 = last b 0) by (apply last_app_nonempty, (g_ne b Hb)).
  constructor; rewrite ?Hl.
  - destruct a; [now elim Hna|discriminate].
  - pose proof (g_hdw a Ha) as Hh. destruct a; [now elim Hna|exact Hh].
  - apply (g_lastw b Hb).
  - apply (g_lastc b Hb).
  - apply (g_lastm b Hb).
  - apply Forall_app. split; [apply (g_chars a Ha)|apply (g_chars b Hb)].
  - intros p. now rewrite opfree_app, (g_opfree a Ha), (g_opfree b Hb).
  - apply crossed_app; [apply (g_scan a Ha)|apply (g_scan b Hb)].
  - now rewrite !count_c_app, (g_bal a Ha), (g_bal b Hb).
Qed.

Lemma good_call f ps : word f -> Forall good ps -> good (call_text f ps).
Proof.
  intros Hf Hps. apply good_app; [now apply good_word|].
  apply good_enclosed; [now left|now apply inner_join].
Qed.

Lemma good_list ps : Forall good ps -> good (list_text ps).
Proof. intros Hps. apply good_enclosed; [now right|now apply inner_join]. Qed.

Lemma good_list_bar ps v : Forall good ps -> good v -> good (list_text_bar ps v).
Proof.
  intros Hps Hv. apply good_enclosed; [now right|].
  apply inner_app; [now apply inner_join|]. apply inner_app; [apply inner_sep_bar|now apply inner_good].
Qed.

(* the printed texts are of this form *)
Fixpoint show_args (first : bool) (l : list term) : str :=
  match l with
  | [] => []
  | x :: l' => (if first then [] else sep_comma) ++ show_term x ++ show_args false l'
  end.

Lemma show_complex f rest :
  show_term (TComplex (f :: rest)) = show_term f ++ 40 :: show_args true rest ++ [41].
Proof. reflexivity. Qed.

Lemma show_args_false l : l <> [] ->
  show_args false l = sep_comma ++ join_strs sep_comma (map show_term l).
Proof.
  induction l as [|x l IH]; intros Hne; [now elim Hne|].
  cbn [show_args map]. destruct l as [|y l'].
  - cbn [show_args map join_strs]. now rewrite app_nil_r.
  - rewrite IH by discriminate. cbn [map]. rewrite join_strs_cons2. reflexivity.
Qed.

Lemma show_args_true l : show_args true l = join_strs sep_comma (map show_term l).
Proof.
  destruct l as [|x l]; [reflexivity|]. cbn [show_args map app].
  destruct l as [|y l'].
  - cbn [show_args map join_strs]. now rewrite app_nil_r.
  - rewrite show_args_false by discriminate. cbn [map]. rewrite join_strs_cons2. reflexivity.
Qed.

Lemma show_complex_text f ts :
  show_term (TComplex (TAtom f :: ts)) = call_text f (map show_term ts).
Proof. rewrite show_complex, show_args_true. reflexivity. Qed.

(* lists: the nodes after the first *)
Fixpoint show_items (n : term) : str :=
  match n with
  | TList a2 n2 _ tv2 =>
      if is_nil a2 then []
      else (if tv2 then sep_bar else sep_comma) ++ show_term a2 ++ show_items n2
  | _ => []
  end.

Lemma show_list a nx c tv :
  show_term (TList a nx c tv) =
  91 :: (if is_nil a then [] else show_term a ++ show_items nx) ++ [93].
Proof. reflexivity. Qed.

(* a list of the given elements, in the shape parse_linked_list builds; `last` is the node
   after the last element: the empty list, or the node of a tail variable *)
Definition list_nodes (ts : list term) (last : term) : term :=
  fold_right (fun t l => TList t l (node_count l + 1) false) last ts.
Definition tail_node (v : term) : term := TList v empty_list 1 true.

Lemma make_list_of_terms_nodes ts : make_list_of_terms ts = list_nodes ts empty_list.
Proof. reflexivity. Qed.

Definition non_nil_terms (ts : list term) : Prop := Forall (fun t => is_nil t = false) ts.

Lemma show_items_nodes ts last : non_nil_terms ts -> ts <> [] ->
  show_items (list_nodes ts last) =
  sep_comma ++ join_strs sep_comma (map show_term ts) ++ show_items last.
Proof.
  induction ts as [|x ts IH]; intros Hn Hne; [now elim Hne|].
  inversion Hn as [|y l Hx Hts]; subst.
  cbn [list_nodes fold_right show_items]. fold (list_nodes ts last). rewrite Hx.
  destruct ts as [|y ts'].
  - cbn [list_nodes fold_right map join_strs]. reflexivity.
  - rewrite IH by (assumption || discriminate). cbn [map]. rewrite join_strs_cons2.
    rewrite <- !app_assoc. reflexivity.
Qed.

Lemma show_list_nodes ts last : non_nil_terms ts -> ts <> [] ->
  show_term (list_nodes ts last) =
  c_lbr :: (join_strs sep_comma (map show_term ts) ++ show_items last) ++ [c_rbr].
Proof.
  intros Hn Hne. destruct ts as [|x ts]; [now elim Hne|].
  inversion Hn as [|y l Hx Hts]; subst.
  cbn [list_nodes fold_right]. fold (list_nodes ts last). rewrite show_list, Hx.
  destruct ts as [|y ts'].
  - cbn [list_nodes fold_right map join_strs]. reflexivity.
  - rewrite show_items_nodes by (assumption || discriminate). cbn [map].
    rewrite join_strs_cons2. rewrite <- !app_assoc. reflexivity.
Qed.

Lemma show_list_plain ts : non_nil_terms ts ->
  show_term (make_list_of_terms ts) = list_text (map show_term ts).
Proof.
  intros Hn. rewrite make_list_of_terms_nodes. destruct ts as [|x ts]; [reflexivity|].
  rewrite show_list_nodes by (assumption || discriminate).
  cbn [show_items empty_list is_nil]. now rewrite app_nil_r.
Qed.

Lemma show_list_tail ts v : non_nil_terms ts -> ts <> [] -> is_nil v = false ->
  show_term (list_nodes ts (tail_node v)) = list_text_bar (map show_term ts) (show_term v).
Proof.
  intros Hn Hne Hv. rewrite show_list_nodes by assumption.
  cbn [tail_node show_items]. rewrite Hv. cbn [show_items empty_list is_nil].
  now rewrite app_nil_r.
Qed.

Lemma achar_tchar c : achar c = true -> tchar c = true.
Proof.
  unfold achar. intros H. apply orb_true_iff in H as [H|H].
  - apply wchar_tchar. now apply ident_wchar.
  - apply N.eqb_eq in H. subst c. reflexivity.
Qed.


Lemma achar_pchar c : achar c = true -> pchar c = true.
Proof.
  unfold achar, pchar. intros H. apply orb_true_iff in H as [H|H]; [|now rewrite H, orb_true_r].
  now rewrite (ident_wchar c H).
Qed.

Lemma good_wide_atom s : wide_atom s = true -> good s.
Proof.
  intros Hs. destruct (wide_atom_facts s Hs) as (Hne & Hh & Hall & Hl & _).
  apply good_plain; [exact Hne| |now apply ident_wchar|now apply ident_wchar| |now apply opfree_wide].
  - eapply Forall_impl; [|exact Hall]. exact achar_pchar.
  - intros E. rewrite E in Hl. discriminate Hl.
Qed.

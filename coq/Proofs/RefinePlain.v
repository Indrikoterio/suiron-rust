(* Cut-free ("plain") goals and programs: the nodes of a search over them never carry a cut
   flag and never report a cut. *)
From Coq Require Import Lia.
From Suiron Require Import Model.Term Model.Subst Model.Show Model.Lists Model.Arith Model.Unify
  Model.Compare Model.Builtins Model.Rename Model.Solve Proofs.RenameProofs Proofs.SolveRel.
Open Scope N_scope.

Fixpoint plain (g : goal) : bool :=
  match g with
  | GCall _ => true
  | GBip f _ => negb (str_eqb f n_cut)
  | GOp OAnd gs | GOp OOr gs =>
      (fix all (l : list goal) : bool := match l with [] => true | x :: l' => plain x && all l' end) gs
  | _ => false
  end.

Lemma plain_op_forallb k gs : (k = OAnd \/ k = OOr) -> plain (GOp k gs) = forallb plain gs.
Proof. intros [->| ->]; simpl; induction gs as [|x l IH]; simpl; auto; now rewrite IH. Qed.

Definition plain_rule (r : rule) : bool := is_gnil (r_body r) || plain (r_body r).
Definition plain_kb (kb : kbase) : Prop :=
  forall key rs, kb_get kb key = Some rs -> forallb plain_rule rs = true.

(* renaming does not touch what `plain` looks at *)
Lemma plain_erase : forall g, plain (erase_goal g) = plain g.
Proof.
  induction g as [k gs Hgs|f ts|t|] using goal_ind'; try reflexivity.
  - destruct k; try reflexivity; cbn [erase_goal];
      rewrite !plain_op_forallb by auto; induction Hgs as [|x l Hx _ IH]; simpl; auto; now rewrite Hx, IH.
  - destruct ts; reflexivity.
Qed.

Lemma gnil_erase g : is_gnil (erase_goal g) = is_gnil g.
Proof. destruct g as [k gs|f ts|t|]; try reflexivity. destruct ts; reflexivity. Qed.

(* a property of clause bodies that renaming does not touch holds of every clause fetched *)
Lemma get_rule_body (P : goal -> bool) kb key idx ctr r ctr' :
  (forall g, P (erase_goal g) = P g) ->
  (forall rs, kb_get kb key = Some rs -> forallb (fun r0 => P (r_body r0)) rs = true) ->
  get_rule kb key idx ctr = Ok (r, ctr') -> P (r_body r) = true.
Proof.
  intros He Hk H. destruct (get_rule_spec _ _ _ _ _ _ H) as (r0 & rules & Hg & Hn & Her & _).
  pose proof (Hk _ Hg) as Hall. rewrite forallb_forall in Hall.
  specialize (Hall r0 (nth_error_In _ _ Hn)). cbn beta in Hall.
  unfold erase_rule in Her. injection Her as _ H2. now rewrite <- He, H2, He.
Qed.

Lemma get_rule_plain kb key idx ctr r ctr' :
  plain_kb kb -> get_rule kb key idx ctr = Ok (r, ctr') -> plain_rule r = true.
Proof.
  intro Hk. apply (get_rule_body (fun g => is_gnil g || plain g)); [|exact (Hk key)].
  intro g. now rewrite gnil_erase, plain_erase.
Qed.

(* the nodes of a plain search *)
Fixpoint pnode (nd : node) : Prop :=
  match nd with
  | NBip fn _ _ nobt _ => nobt = false /\ str_eqb fn n_cut = false
  | NCall _ _ nobt child _ _ => nobt = false /\ match child with Some c => pnode c | None => True end
  | NOp k _ nobt _ head tail optail =>
      (k = OAnd \/ k = OOr) /\ nobt = false /\
      match head with Some h => pnode h | None => True end /\
      match tail with Some t => pnode t | None => True end /\
      match optail with Some tl => forallb plain tl = true | None => True end
  end.

Lemma make_node_pnode kb : forall g ss w nd w', plain g = true -> make_node kb g ss w = Ok (nd, w') -> pnode nd.
Proof.
  intros g ss w nd w' Hp H. apply make_node_Made in H.
  induction H as [k h tl w hn w' _ IH|f ts w|t key w _]; cbn [pnode]; auto.
  - destruct k; try discriminate; rewrite plain_op_forallb in Hp by auto;
      apply andb_true_iff in Hp as [P1 P2]; auto 6.
  - split; [reflexivity|]. now apply negb_true_iff in Hp.
Qed.

Lemma pure_bip_no_cut e r : pure_bip e = Ok r -> br_cut r = false.
Proof. unfold pure_bip. destruct e; cbn [bind]; try discriminate. now intros [= <-]. Qed.

(* every builtin other than `!` builds its result with the cut flag false *)
Lemma run_bip_no_cut bf fn ts ss r : str_eqb fn n_cut = false -> run_bip bf fn ts ss = Ok r -> br_cut r = false.
Proof.
  intros Hn H. unfold run_bip in H. rewrite Hn in H.
  repeat match type of H with
         | (if ?c then _ else _) = _ => destruct c
         | match ?ts with Some _ => _ | None => _ end = _ => destruct ts as [[|? [|? ?]]|]
         | bind ?e _ = _ => destruct e; cbn [bind] in H
         end; try discriminate; try (injection H as <-; reflexivity); exact (pure_bip_no_cut _ _ H).
Qed.

Section Plain.
  Variable kb : kbase.
  Variable bf : nat.
  Hypothesis Hkb : plain_kb kb.

  Lemma make_node_pnode_op k g tl ss w nd w' : k = OAnd \/ k = OOr -> forallb plain (g :: tl) = true ->
    make_node kb (GOp k (g :: tl)) ss w = Ok (nd, w') -> pnode nd.
  Proof. intros Hk Hp. apply make_node_pnode. now rewrite plain_op_forallb. Qed.

  Lemma make_node_pnode_body key idx ctr r ctr' ss w nd w' :
    get_rule kb key idx ctr = Ok (r, ctr') -> is_gnil (r_body r) = false ->
    make_node kb (r_body r) ss w = Ok (nd, w') -> pnode nd.
  Proof.
    intros Hg Hn. apply make_node_pnode. pose proof (get_rule_plain _ _ _ _ _ _ Hkb Hg) as Hr.
    unfold plain_rule in Hr. now rewrite Hn in Hr.
  Qed.

  Lemma plain_inv :
    (forall nd w nd' sol c w', Next kb bf nd w nd' sol c w' -> pnode nd -> c = false /\ pnode nd') /\
    (forall ss nobt more head tail o acc w nd' sol c w',
       AndLoop kb bf ss nobt more head tail o acc w nd' sol c w' -> nobt = false ->
       match head with Some h => pnode h | None => True end ->
       match tail with Some t => pnode t | None => True end ->
       match o with Some tl => forallb plain tl = true | None => True end -> c = acc /\ pnode nd') /\
    (forall t ss nobt child idx n w nd' sol c w',
       CallLoop kb bf t ss nobt child idx n w nd' sol c w' -> nobt = false ->
       match child with Some c0 => pnode c0 | None => True end -> c = false /\ pnode nd').
  Proof.
    (* a node of `not` or `time` is no pnode; every node made on the way is one; then the induction
       hypotheses, in the order of the runs: each says that no cut was reported, which is what the
       next one asks for *)
    apply Next_mut; intros; cbn [pnode] in *;
      repeat match goal with
      | H : _ /\ _ |- _ => destruct H
      | H : _ = OAnd \/ _ = OOr |- _ => destruct H; discriminate
      | H : make_node _ (GOp _ _) _ _ = Ok _ |- _ => apply make_node_pnode_op in H; [|auto..]
      | H : make_node _ (r_body _) _ _ = Ok _ |- _ => eapply make_node_pnode_body in H; [|eassumption..]
      | H : run_bip _ _ _ _ = Ok _ |- _ => apply run_bip_no_cut in H; [|assumption]
      end;
      repeat match goal with
      | IH : _ -> _ |- _ => edestruct IH as [? ?]; [solve [auto] ..|]; clear IH; subst
      end; try discriminate; cbn [orb]; rewrite ?orb_false_r; repeat split; auto.
  Qed.

  Theorem pnode_next fuel nd w nd' r c w' :
    pnode nd -> next kb bf fuel nd w = Ok (nd', r, c, w') -> c = false /\ pnode nd'.
  Proof. intros Hp H. exact (proj1 plain_inv _ _ _ _ _ _ (next_sound _ _ _ _ _ _ _ _ _ H) Hp). Qed.
End Plain.

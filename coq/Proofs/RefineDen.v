(* C01 / C04 for plain programs (no cut, not or time): the resumable search of Model/Solve.v refines the
   reference search of Spec/SpecLazy.v.

   `den fs nd w k` is the ABSTRACTION FUNCTION: what remains of the reference search in the
   state of node nd (answers still to come are handed to k, from world w).  One machine step
   (`next`) either finds no answer - then the denotation is empty - or finds answer s and
   leaves a node whose denotation is the rest (den_step).  Hence draining a node yields
   exactly its denotation, and the denotation of a fresh node is the reference search of its
   goal (den_fresh).

   den_step is the theorem of Proofs/RefineCut.v read on the plain fragment: there lsolve is
   csolve, and den is cden, with the signal Go throughout (lsolve_csolve, den_cden).  That reading
   needs a plain knowledge base (plain_kb); the monotonicity of lsolve and den_fresh hold for every
   knowledge base, so they are proved directly, by the inductions of csolve_ord_all and cden_fresh_le. *)
From Coq Require Import Lia.
From Suiron Require Import Model.Term Model.Subst Model.Show Model.Lists Model.Arith Model.Unify
  Model.Compare Model.Builtins Model.Rename Model.Solve Spec.SpecLazy Spec.SpecCut
  Proofs.RenameProofs Proofs.SolveRel Proofs.SolveDead Proofs.RefinePlain Proofs.RefineCut.
Open Scope N_scope.

Definition kle (k1 k2 : kont) : Prop := forall s w r, k1 s w = Ok r -> k2 s w = Ok r.
Lemma kle_refl k : kle k k. Proof. intros s w r H; exact H. Qed.

Section Den.
  Variable kb : kbase.
  Variable bf : nat.

  Definition lseq (x : res (list subst * world)) (f : world -> res (list subst * world)) :=
    do p <- x; let '(a1, w1) := p in do q <- f w1; let '(a2, w2) := q in Ok (a1 ++ a2, w2).
  Lemma lseq_le x y f g : ole x y -> (forall w, ole (f w) (g w)) -> ole (lseq x f) (lseq y g).
  Proof.
    intros Hx Hf. apply ole_bind; [exact Hx|]. intros [a1 w1]. apply ole_bind; [apply Hf|intro; apply ole_refl].
  Qed.

  Lemma solve_mono_all : forall f,
    (forall f' g s w k1 k2, (f <= f')%nat -> kle k1 k2 ->
       ole (lsolve kb bf f g s w k1) (lsolve kb bf f' g s w k2)) /\
    (forall f' t s key idx n w k1 k2, (f <= f')%nat -> kle k1 k2 ->
       ole (lclauses kb bf f t s key idx n w k1) (lclauses kb bf f' t s key idx n w k2)).
  Proof.
    induction f as [|f [IHs IHc]]; [split; intros; intros R C; discriminate C|].
    split.
    - intros [|f'] g s w k1 k2 Hle Hk; [lia|]. apply le_S_n in Hle. rewrite !solve_S.
      destruct g as [op gs|fn ts|t|]; [destruct op, gs as [|g1 [|g2 rest]]|..]; try apply ole_refl; cbn [solve_body].
      + now apply IHs.
      + apply IHs; [exact Hle|]. intros s1 w1. exact (IHs _ _ _ _ _ _ Hle Hk).
      + now apply IHs.
      + apply lseq_le; [|intro]; now apply IHs.
      + destruct (run_bip bf fn ts s) as [r| |]; try apply ole_refl. cbn [bind].
        destruct (br_cut r), (br_sol r); try apply ole_refl. exact (Hk _ _).
      + destruct (term_key t) as [key| |]; try apply ole_refl. cbn [bind].
        destruct (count_rules kb key w) as [n w0]. now apply IHc.
    - intros [|f'] t s key idx n w k1 k2 Hle Hk; [lia|]. apply le_S_n in Hle. rewrite !clauses_S.
      unfold clauses_body. destruct (n <=? idx); [apply ole_refl|].
      destruct (get_rule kb key idx (next_id w)) as [[r ctr]| |]; try apply ole_refl. cbn [bind].
      destruct (unify bf (r_head r) t s) as [[s'|]| |]; try apply ole_refl; cbn [bind]; [|now apply IHc].
      apply lseq_le; [|intro; now apply IHc]. destruct (is_gnil (r_body r)); [exact (Hk _ _)|now apply IHs].
  Qed.

  (* the continuation of the first goal of a conjunction whose other goals are `optail` *)
  Definition kand (fs : nat) (optail : option (list goal)) (k : kont) : kont :=
    match optail with
    | Some (g :: r) => fun s1 w' => lsolve kb bf fs (GOp OAnd (g :: r)) s1 w' k
    | _ => k
    end.
  (* the remaining alternatives of a disjunction *)
  Definition orrest (fs : nat) (optail : option (list goal)) (ss : subst) (w : world) (k : kont)
    : res (list subst * world) :=
    match optail with
    | Some (g :: r) => lsolve kb bf fs (GOp OOr (g :: r)) ss w k
    | _ => Ok ([], w)
    end.

  Definition keyof (t : term) : str := match term_key t with Ok key => key | _ => [] end.

  Fixpoint den (fs : nat) (nd : node) (w : world) (k : kont) {struct nd} : res (list subst * world) :=
    match nd with
    | NBip fn ts ss _ more => if more then lsolve kb bf fs (GBip fn ts) ss w k else Ok ([], w)
    | NCall t ss _ child idx n =>
        do x <- match child with Some c => den fs c w k | None => Ok ([], w) end;
        let '(a1, w1) := x in
        do y <- lclauses kb bf fs t ss (keyof t) idx n w1 k;
        let '(a2, w2) := y in Ok (a1 ++ a2, w2)
    | NOp OAnd ss _ _ head tail optail =>
        do x <- match tail with Some t => den fs t w k | None => Ok ([], w) end;
        let '(a1, w1) := x in
        do y <- match head with Some h => den fs h w1 (kand fs optail k) | None => Ok ([], w1) end;
        let '(a2, w2) := y in Ok (a1 ++ a2, w2)
    | NOp OOr ss _ _ head tail optail =>
        match tail with
        | Some t => den fs t w k
        | None =>
            match head with
            | None => Ok ([], w)
            | Some h =>
                do x <- den fs h w k;
                let '(a1, w1) := x in
                do y <- orrest fs optail ss w1 k;
                let '(a2, w2) := y in Ok (a1 ++ a2, w2)
            end
        end
    | _ => Panic
    end.

  Definition dopt fs (o : option node) w k := match o with Some t => den fs t w k | None => Ok ([], w) end.
  Lemma den_call fs t ss b child idx n w k :
    den fs (NCall t ss b child idx n) w k =
    lseq (dopt fs child w k) (fun w1 => lclauses kb bf fs t ss (keyof t) idx n w1 k).
  Proof. reflexivity. Qed.
  Lemma den_and fs ss b m head tail o w k :
    den fs (NOp OAnd ss b m head tail o) w k =
    lseq (dopt fs tail w k) (fun w1 => dopt fs head w1 (kand fs o k)).
  Proof. reflexivity. Qed.
  Lemma den_or_head fs ss b m h o w k :
    den fs (NOp OOr ss b m (Some h) None o) w k = lseq (den fs h w k) (fun w1 => orrest fs o ss w1 k).
  Proof. reflexivity. Qed.

  Lemma lseq_nil_l w f : lseq (Ok ([], w)) f = f w.
  Proof. unfold lseq. cbn [bind]. destruct (f w) as [[a2 w2]| |]; reflexivity. Qed.
  Lemma lseq_nil_r x : lseq x (fun w => Ok ([], w)) = x.
  Proof. destruct x as [[a1 w1]| |]; try reflexivity. unfold lseq. cbn [bind]. now rewrite app_nil_r. Qed.

  (* a fresh node denotes the reference search of its goal (from the world in which it is made) *)
  Lemma den_fresh_le : forall g f fs ss w nd w' k1 k2,
    plain g = true -> make_node kb g ss w = Ok (nd, w') -> (f <= fs)%nat -> kle k1 k2 ->
    ole (lsolve kb bf f g ss w k1) (den fs nd w' k2).
  Proof.
    intros g f fs ss w nd w' k1 k2 Hp Hm. apply make_node_Made in Hm. revert f fs k1 k2 Hp.
    induction Hm as [op g1 rest w hn w' _ IH|fn ts w|t key w Ek]; intros [|f] fs k1 k2 Hp Hle Hk;
      try (intros R C; discriminate C); rewrite solve_S.
    - destruct op; try discriminate Hp; rewrite plain_op_forallb in Hp by auto; cbn [forallb] in Hp;
        apply andb_true_iff in Hp as [P1 P2];
        assert (forall k1 k2, kle k1 k2 -> ole (lsolve kb bf f g1 ss w k1) (den fs hn w' k2)) as Hg1
          by (intros; apply IH; [assumption|lia|assumption]); cbn [solve_body].
      + rewrite den_and. cbn [dopt]. rewrite lseq_nil_l. destruct rest as [|g2 rest]; apply Hg1; [exact Hk|].
        intros s1 w1. apply solve_mono_all; [lia|exact Hk].
      + rewrite den_or_head. destruct rest as [|g2 rest]; [cbn [orrest]; rewrite lseq_nil_r; now apply Hg1|].
        apply lseq_le; [now apply Hg1|]. intro w1. apply solve_mono_all; [lia|exact Hk].
    - cbn [den]. rewrite <- solve_S. apply solve_mono_all; assumption.
    - cbn [solve_body]. rewrite Ek. cbn [bind]. destruct (count_rules kb key w) as [n w0]. cbn [fst snd].
      rewrite den_call. cbn [dopt]. rewrite lseq_nil_l. unfold keyof. rewrite Ek. apply solve_mono_all; [lia|exact Hk].
  Qed.
  Lemma den_fresh : forall g f fs ss w nd w' k1 k2 R,
    plain g = true -> make_node kb g ss w = Ok (nd, w') -> (f <= fs)%nat -> kle k1 k2 ->
    lsolve kb bf f g ss w k1 = Ok R -> den fs nd w' k2 = Ok R.
  Proof. intros g f fs ss w nd w' k1 k2 R Hp Hm Hle Hk. now apply den_fresh_le. Qed.

  (* the cut-free reference search inside the one with cut: the same result, with the signal Go *)
  Definition lift (x : res (list subst * world)) : res cres := do p <- x; let '(a, w) := p in Ok (a, w, Go).
  (* ck is k, as long as no cut is reported to it *)
  Definition lifted (k : kont) (ck : ckont) : Prop := forall s w, ck s w false = lift (k s w).

  Lemma lift_ok x a w g : lift x = Ok (a, w, g) -> x = Ok (a, w) /\ g = Go.
  Proof. destruct x as [[a0 w0]| |]; try discriminate. intro H; inversion H. auto. Qed.
  Lemma seq_lift x f cf : (forall w, cf w = lift (f w)) -> seq (lift x) cf = lift (lseq x f).
  Proof.
    intro E. destruct x as [[a1 w1]| |]; try reflexivity. unfold seq, lseq, lift at 1. cbn [bind]. rewrite E.
    destruct (f w1) as [[a2 w2]| |]; reflexivity.
  Qed.
  Lemma aft_lift x f cf : (forall w, cf w = lift (f w)) -> aft (lift x) cf = lift (lseq x f).
  Proof.
    intro E. destruct x as [[a1 w1]| |]; try reflexivity. unfold aft, lseq, lift at 1. cbn [bind after_body]. rewrite E.
    destruct (f w1) as [[a2 w2]| |]; reflexivity.
  Qed.
  Lemma lifted_kwrap k ck : lifted k ck -> lifted k (kwrap false ck).
  Proof. intros H s w. rewrite kwrap_false. apply H. Qed.
  Lemma lifted_kbump k ck : lifted k ck -> lifted k (kbump ck).
  Proof. intros H s w. unfold kbump. rewrite H. destruct (k s w) as [[a w']| |]; reflexivity. Qed.

  Hypothesis Hkb : plain_kb kb.

  Lemma lsolve_csolve : forall f,
    (forall g s w k ck, plain g = true -> lifted k ck ->
       csolve kb bf f g s w ck = lift (lsolve kb bf f g s w k)) /\
    (forall t s key idx n w k ck, lifted k ck ->
       cclauses kb bf f t s key idx n w ck = lift (lclauses kb bf f t s key idx n w k)).
  Proof.
    induction f as [|f [IHs IHc]]; [split; reflexivity|]. split.
    - intros g s w k ck Hp Hk. rewrite csolve_S, solve_S.
      destruct g as [op gs|fn ts|t|]; [| | |discriminate Hp]; cbn [csolve_body solve_body].
      + destruct op; try discriminate Hp; rewrite plain_op_forallb in Hp by auto;
          (destruct gs as [|g1 [|g2 rest]]; [reflexivity|..]; cbn [forallb] in Hp; apply andb_true_iff in Hp as [P1 P2]).
        * now apply IHs.
        * assert (plain (GOp OAnd (g2 :: rest)) = true) as P2' by now rewrite plain_op_forallb by auto.
          apply IHs; [exact P1|]. intros s1 w1. cbn [mark]. rewrite bind_ret.
          apply IHs; [exact P2'|apply lifted_kwrap, Hk].
        * now apply IHs.
        * assert (plain (GOp OOr (g2 :: rest)) = true) as P2' by now rewrite plain_op_forallb by auto.
          rewrite (IHs g1 _ _ k ck P1 Hk). apply seq_lift. intro w1. now apply IHs.
      + destruct (run_bip bf fn ts s) as [r| |] eqn:Er; try reflexivity. cbn [bind].
        cbn [plain] in Hp. apply negb_true_iff in Hp. rewrite (run_bip_no_cut _ _ _ _ _ Hp Er).
        destruct (br_sol r); [|reflexivity]. cbn [mark]. rewrite bind_ret. apply Hk.
      + destruct (term_key t) as [key| |]; try reflexivity. cbn [bind].
        destruct (count_rules kb key w) as [n w0]. now apply IHc.
    - intros t s key idx n w k ck Hk. rewrite cclauses_S, clauses_S. unfold cclauses_body, clauses_body.
      destruct (n <=? idx); [reflexivity|].
      destruct (get_rule kb key idx (next_id w)) as [[r ctr]| |] eqn:Eg; try reflexivity. cbn [bind].
      destruct (unify bf (r_head r) t s) as [[s'|]| |]; try reflexivity; cbn [bind]; [|now apply IHc].
      destruct (is_gnil (r_body r)) eqn:En.
      + rewrite Hk. apply seq_lift. intro w2. now apply IHc.
      + pose proof (get_rule_plain _ _ _ _ _ _ Hkb Eg) as Pb. unfold plain_rule in Pb. rewrite En in Pb.
        rewrite (IHs _ _ _ k (kbump ck) Pb (lifted_kbump _ _ Hk)). apply aft_lift. intro w2. now apply IHc.
  Qed.

  Lemma csolve_lift f g s w k ck : plain g = true -> lifted k ck ->
    csolve kb bf f g s w ck = lift (lsolve kb bf f g s w k).
  Proof. apply lsolve_csolve. Qed.
  Lemma cclauses_lift f t s key idx n w k ck : lifted k ck ->
    cclauses kb bf f t s key idx n w ck = lift (lclauses kb bf f t s key idx n w k).
  Proof. apply lsolve_csolve. Qed.

  Lemma lifted_kand fs o k ck : match o with Some tl => forallb plain tl = true | None => True end ->
    lifted k ck -> lifted (kand fs o k) (ckand kb bf fs o ck).
  Proof.
    destruct o as [[|g tl]|]; try (intros _ H; exact H). intros Po Hk s w. cbn [ckand kand mark].
    rewrite bind_ret. apply csolve_lift; [now rewrite plain_op_forallb by auto|apply lifted_kwrap, Hk].
  Qed.

  (* on the nodes of a cut-free search the two abstraction functions agree *)
  Lemma den_cden fs : forall nd w k ck, pnode nd -> lifted k ck -> cden kb bf fs nd w ck = lift (den fs nd w k).
  Proof.
    assert (forall o w k ck, dead_opt (fun nd => forall w k ck, pnode nd -> lifted k ck -> cden kb bf fs nd w ck = lift (den fs nd w k)) o ->
              dead_opt pnode o -> lifted k ck ->
              match o with Some t => cden kb bf fs t w ck | None => empty w end = lift (dopt fs o w k)) as Hopt.
    { intros [t|] w k ck IH P Hk; [now apply IH|reflexivity]. }
    induction nd as [t ss nobt child idx n IHc|op ss nobt more head tail o IHh IHt|fn ts ss nobt more] using node_ind2;
      intros w k ck P Hk; cbn [pnode] in P.
    - destruct P as [-> Pc]. rewrite cden_call, den_call, (Hopt child w k) by (assumption || apply lifted_kbump, Hk).
      apply aft_lift. intro w2. now apply cclauses_lift.
    - destruct P as (Ho & -> & Ph & Pt & Po). destruct Ho as [-> | ->].
      + rewrite cden_and, den_and, (Hopt tail w k) by (assumption || apply lifted_kwrap, Hk).
        apply seq_lift. intro w1. apply Hopt; [assumption..|now apply lifted_kand].
      + rewrite cden_or. destruct tail as [t0|]; [now apply IHt|]. destruct head as [h|]; [|reflexivity].
        rewrite den_or_head, (IHh w k ck Ph Hk). apply seq_lift. intro w1.
        destruct o as [[|g tl]|]; try reflexivity. cbn [correst orrest].
        apply csolve_lift; [now rewrite plain_op_forallb by auto|exact Hk].
    - destruct P as [-> Pn]. cbn [cden den node_nobt]. destruct more; [|reflexivity].
      apply csolve_lift; [cbn [plain]; now rewrite Pn|exact Hk].
  Qed.

  Definition klift (k : kont) : ckont := fun s w _ => lift (k s w).
  Lemma lifted_klift k : lifted k (klift k). Proof. intros s w. reflexivity. Qed.

  (* an exhausted node denotes the empty rest *)
  Lemma dead_den nd fs w k : pnode nd -> dead nd -> (1 <= fs)%nat -> den fs nd w k = Ok ([], w).
  Proof.
    intros P D Hfs. pose proof (cdead_den kb bf nd fs w (klift k) D Hfs) as E.
    rewrite (den_cden fs nd w k _ P (lifted_klift k)) in E. now apply lift_ok in E.
  Qed.

  (* what one step of the machine says about the value R of the denotation *)
  Definition stepres (fs : nat) (k : kont) (R : list subst * world) (nd' : node) (r : option subst) (w1 : world) : Prop :=
    match r with
    | None => R = ([], w1)
    | Some s1 => exists a1 w2 a2 w3,
        k s1 w1 = Ok (a1, w2) /\ den fs nd' w2 k = Ok (a2, w3) /\ R = (a1 ++ a2, w3)
    end.

  Theorem den_step F nd w nd' r c w1 fs k R :
    pnode nd -> (1 <= fs)%nat -> next kb bf F nd w = Ok (nd', r, c, w1) -> den fs nd w k = Ok R ->
    stepres fs k R nd' r w1.
  Proof.
    intros P Hfs H HD. destruct R as [a wa]. destruct (pnode_next kb bf Hkb _ _ _ _ _ _ _ P H) as [-> P'].
    assert (cden kb bf fs nd w (klift k) = Ok (a, wa, Go)) as HC
      by (rewrite (den_cden fs nd w k _ P (lifted_klift k)), HD; reflexivity).
    pose proof (cden_step kb bf F _ _ _ _ _ _ fs _ _ Hfs H HC) as S.
    destruct r as [s|]; cbn [cstepres stepres] in *; [|inversion S; reflexivity].
    destruct S as (a1 & w2 & g1 & Hk1 & S). apply lift_ok in Hk1 as [Hk1 ->].
    destruct S as (a2 & w3 & g2 & Hd & E). rewrite (den_cden fs nd' w2 k _ P' (lifted_klift k)) in Hd.
    apply lift_ok in Hd as [Hd ->]. injection E as -> ->. now exists a1, w2, a2, w3.
  Qed.

  (* asking a node until it reports no answer, every answer being handed to k *)
  Fixpoint drainK (m F : nat) (nd : node) (w : world) (k : kont) : res (list subst * world) :=
    match m with
    | O => OutOfFuel
    | S m' =>
        do x <- next kb bf F nd w;
        let '(nd', r, _, w1) := x in
        match r with
        | None => Ok ([], w1)
        | Some s =>
            do y <- k s w1;
            let '(a1, w2) := y in
            do z <- drainK m' F nd' w2 k;
            let '(a2, w3) := z in Ok (a1 ++ a2, w3)
        end
    end.

  Theorem drain_is_den : forall m F nd w k fs R R',
    pnode nd -> (1 <= fs)%nat -> den fs nd w k = Ok R -> drainK m F nd w k = Ok R' -> R' = R.
  Proof.
    induction m as [|m IH]; intros F nd w k fs R R' Hp Hfs HD H; [discriminate|].
    cbn [drainK] in H. ok H as [[[nd1 o1] b1] w1].
    destruct (pnode_next kb bf Hkb _ _ _ _ _ _ _ Hp E) as [-> P1].
    pose proof (den_step _ _ _ _ _ _ _ _ _ _ Hp Hfs E HD) as Hs.
    destruct o1 as [s|].
    - destruct Hs as (a1 & w2 & a2 & w3 & Hk1 & Hd1 & ->). rewrite Hk1 in H. cbn [bind] in H.
      destruct (drainK m F nd1 w2 k) as [[a2' w3']| |] eqn:Ed; cbn [bind] in H; try discriminate.
      pose proof (IH _ _ _ _ _ _ _ P1 Hfs Hd1 Ed) as Heq. inversion Heq; subst. now inversion H.
    - inversion Hs; subst. now inversion H.
  Qed.

  (* The query level: if the reference search of query q finishes with answers R, and asking the
     query's node until it reports no answer finishes, the answers, their order and multiplicity,
     and the final world (variable-id counter, output) are R's. *)
  Theorem refines_lazy q w fs R nd w1 m F R' :
    answers kb bf fs q w = Ok R ->
    make_base_node kb (GCall q) w = Ok (nd, w1) ->
    drainK m F nd w1 (fun s w' => Ok ([s], w')) = Ok R' -> R' = R.
  Proof.
    intros Ha Hm Hd. unfold answers in Ha.
    assert (make_node kb (GCall q) [] w = Ok (nd, w1)) as Hm' by exact Hm.
    destruct fs as [|f0]; [discriminate|].
    eapply (drain_is_den m F nd w1 _ (S f0)); [eapply make_node_pnode; [|exact Hm']; reflexivity|lia| |exact Hd].
    eapply (den_fresh (GCall q) (S f0) (S f0)); [reflexivity|exact Hm'|lia|apply kle_refl|exact Ha].
  Qed.
End Den.

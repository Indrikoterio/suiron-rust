(* More search fuel never changes a finished result: if `next` (and_loop, call_loop) returns Ok
   with some fuel, it returns the same with any larger fuel. *)
From Suiron Require Import Model.Term Model.Subst Model.Show Model.Lists Model.Arith Model.Unify
  Model.Compare Model.Builtins Model.Rename Model.Solve Proofs.SolveFrame.
Open Scope N_scope.

Section Mono.
  Variable kb : kbase.
  Variable bf : nat.

  (* the case analysis of SolveFrame.v, with nothing printed in front and no claim about runs
     that do not finish *)
  Lemma mono_step f :
    framed_next [] False (next kb bf f) (next kb bf (S f)) /\
    framed_and [] False (and_loop kb bf f) (and_loop kb bf (S f)) /\
    framed_call [] False (call_loop kb bf f) (call_loop kb bf (S f)).
  Proof. induction f; [repeat split; red; intros; intros []|now apply framed_fuel]. Qed.

  Theorem next_mono : forall f f' nd w r, (f <= f')%nat -> next kb bf f nd w = Ok r -> next kb bf f' nd w = Ok r.
  Proof.
    intros f f' nd w r Hle H. induction Hle as [|f' _ IH]; [exact H|].
    pose proof (proj1 (mono_step f') nd w) as S. rewrite wpre_nil, IH in S. exact (eq_trans S (rpre_nil _)).
  Qed.
  Theorem and_loop_mono : forall f f' ss nobt more head tail optail acc w r, (f <= f')%nat ->
    and_loop kb bf f ss nobt more head tail optail acc w = Ok r ->
    and_loop kb bf f' ss nobt more head tail optail acc w = Ok r.
  Proof.
    intros f f' ss nobt more head tail optail acc w r Hle H. induction Hle as [|f' _ IH]; [exact H|].
    pose proof (proj1 (proj2 (mono_step f')) ss nobt more head tail optail acc w) as S.
    rewrite wpre_nil, IH in S. exact (eq_trans S (rpre_nil _)).
  Qed.
  Theorem call_loop_mono : forall f f' t ss nobt child idx n w r, (f <= f')%nat ->
    call_loop kb bf f t ss nobt child idx n w = Ok r -> call_loop kb bf f' t ss nobt child idx n w = Ok r.
  Proof.
    intros f f' t ss nobt child idx n w r Hle H. induction Hle as [|f' _ IH]; [exact H|].
    pose proof (proj2 (proj2 (mono_step f')) t ss nobt child idx n w) as S.
    rewrite wpre_nil, IH in S. exact (eq_trans S (rpre_nil _)).
  Qed.
End Mono.

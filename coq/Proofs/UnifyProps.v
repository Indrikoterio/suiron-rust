(* Instances of the invariant principle: extension (C06), `$_` never bound (C09), binding
   chains end (C08); plus the direct lemmas on `$_` and aliased variables. *)
From Coq Require Import Lia.
From Suiron Require Import Model.Term Model.Subst Model.Show Model.Lists Model.Arith Model.Unify
  Spec.SpecCompare Spec.SpecUnify Proofs.UnifyInv.
Open Scope N_scope.

(* the invariant principle for well-formed operands: functors are atoms *)
Lemma unify_wf_inv (R : subst -> subst -> Prop) :
  (forall s, R s s) -> (forall a b c, R a b -> R b c -> R a c) ->
  (forall f ss id other, ss_get ss id = None -> is_anon other = false ->
     chain_reaches f id other ss = Ok false -> R ss (ss_set ss id other)) ->
  forall fuel a b ss ss', wf_term a = true -> wf_term b = true -> wf_ss ss ->
    unify fuel a b ss = Ok (Some ss') -> R ss ss' /\ wf_ss ss'.
Proof.
  intros R_refl R_trans R_bind fuel a b ss ss' Ha Hb Hs H.
  refine (unify_inv _ _ wf_parts R R_refl R_trans _ _ fuel a b ss ss' H Ha Hb Hs).
  - intros; eapply R_bind; eauto.
  - left. intros [|[] rest] W; try discriminate W. eauto.
Qed.

(* the same as `keeps` of Spec/SpecUnify.v (UnifySound.keeps_extends) *)
Definition extends (ss ss' : subst) : Prop :=
  forall i t, ss_get ss i = Some t -> ss_get ss' i = Some t.

Theorem unify_extends fuel a b ss ss' :
  wf_term a = true -> wf_term b = true -> wf_ss ss ->
  unify fuel a b ss = Ok (Some ss') -> extends ss ss' /\ wf_ss ss'.
Proof.
  apply (unify_wf_inv extends keeps_refl keeps_trans).
  intros f s id other Hn _ _. now apply keeps_set.
Qed.

Definition no_anon_binding (ss : subst) : Prop := forall i, ss_get ss i <> Some TAnon.

Theorem unify_never_binds_anon fuel a b ss ss' :
  wf_term a = true -> wf_term b = true -> wf_ss ss ->
  unify fuel a b ss = Ok (Some ss') -> no_anon_binding ss -> no_anon_binding ss'.
Proof.
  intros Ha Hb Hs H.
  refine (proj1 (unify_wf_inv (fun s s' => no_anon_binding s -> no_anon_binding s') _ _ _
                   fuel a b ss ss' Ha Hb Hs H)); auto.
  intros f s id other Hn Hanon _ Hx i.
  destruct (N.eq_dec i id) as [->|Hne].
  - rewrite ss_get_set_same. intro E. injection E as ->. discriminate.
  - rewrite ss_get_set_other by assumption. apply Hx.
Qed.

Lemma unify_args_skip rec pre pre' l r post post' s s2 :
  length pre = length pre' -> is_anon l || is_anon r = true ->
  unify_args rec (pre ++ l :: post) (pre' ++ r :: post') s s2 =
  unify_args rec (pre ++ post) (pre' ++ post') s s2.
Proof.
  intros Hl A. revert pre' s s2 Hl.
  induction pre as [|p pre IH]; intros [|p' pre'] s s2 Hl; try discriminate Hl; cbn [app unify_args].
  - now rewrite A.
  - injection Hl as Hl. destruct (is_anon p || is_anon p'); [now apply IH|].
    destruct (rec p p' s) as [[s1|]| |]; cbn [bind]; try reflexivity. now apply IH.
Qed.

Definition chains_end (ss : subst) : Prop := forall t, exists r, chain ss t r.

Lemma chains_end_nil : chains_end [].
Proof.
  intro t. destruct (is_var t) eqn:E.
  - destruct t; try discriminate. exists None. constructor. apply ss_get_nil.
  - exists (Some t). now constructor.
Qed.

Lemma not_reach_chain f : forall id o ss x,
  chain_reaches f id o ss = Ok false -> ss_get ss id = None ->
  exists r, chain (ss_set ss id x) o r.
Proof.
  induction f as [|f IH]; intros id o ss x H Hn;
    (destruct (is_var o) eqn:V; [|exists (Some o); now constructor]);
    destruct o; try discriminate V; cbn [chain_reaches] in H;
    (destruct (N.eqb_spec id0 id) as [|Hne]; [discriminate|]).
  - destruct (ss_get ss id0) eqn:Eg; [discriminate|].
    exists None. constructor. now rewrite ss_get_set_other.
  - destruct (ss_get ss id0) as [t|] eqn:Eg.
    + destruct (IH _ _ _ x H Hn) as [r Hr]. exists r. eapply chain_step; [|exact Hr].
      now rewrite ss_get_set_other.
    + exists None. constructor. now rewrite ss_get_set_other.
Qed.

Lemma chains_end_bind f ss id other :
  ss_get ss id = None -> chain_reaches f id other ss = Ok false ->
  chains_end ss -> chains_end (ss_set ss id other).
Proof.
  intros Hn Hc He t. destruct (He t) as [r Hr].
  induction Hr as [t Hv|id' n Hg|id' n t' r Hg Hr IH].
  - exists (Some t). now constructor.
  - destruct (N.eq_dec id' id) as [->|Hne].
    + destruct (not_reach_chain _ _ _ _ other Hc Hn) as [r' Hr'].
      exists r'. eapply chain_step; [apply ss_get_set_same|exact Hr'].
    + exists None. constructor. now rewrite ss_get_set_other.
  - destruct IH as [r' Hr']. exists r'.
    assert (id' <> id) by congruence.
    eapply chain_step; [|exact Hr']. now rewrite ss_get_set_other.
Qed.

Theorem unify_chains_end fuel a b ss ss' :
  wf_term a = true -> wf_term b = true -> wf_ss ss ->
  unify fuel a b ss = Ok (Some ss') -> chains_end ss -> chains_end ss'.
Proof.
  intros Ha Hb Hs H.
  refine (proj1 (unify_wf_inv (fun s s' => chains_end s -> chains_end s') _ _ _
                   fuel a b ss ss' Ha Hb Hs H)); auto.
  intros f s id other Hn _ Hc Hx. eapply chains_end_bind; eauto.
Qed.

Fixpoint unify_seq (fuel : nat) (pairs : list (term * term)) (ss : subst) : res (option subst) :=
  match pairs with
  | [] => Ok (Some ss)
  | (a, b) :: rest =>
      do u <- unify fuel a b ss;
      match u with
      | Some s => unify_seq fuel rest s
      | None => Ok None
      end
  end.

Definition wf_pairs (pairs : list (term * term)) : Prop :=
  Forall (fun p => wf_term (fst p) = true /\ wf_term (snd p) = true) pairs.

Theorem unify_seq_invariants fuel pairs : forall ss ss',
  wf_pairs pairs -> wf_ss ss -> unify_seq fuel pairs ss = Ok (Some ss') ->
  wf_ss ss' /\ extends ss ss' /\ (chains_end ss -> chains_end ss') /\
  (no_anon_binding ss -> no_anon_binding ss').
Proof.
  induction pairs as [|[a b] rest IH]; intros ss ss' Hw Hs H; simpl in H.
  - inversion H; subst. repeat split; auto. apply keeps_refl.
  - inversion Hw as [|? ? [Ha Hb] Hrest]; subst. simpl in Ha, Hb.
    destruct (unify fuel a b ss) as [[s1|]| |] eqn:E; simpl in H; try discriminate.
    destruct (unify_extends _ _ _ _ _ Ha Hb Hs E) as [He1 Hw1].
    destruct (IH _ _ Hrest Hw1 H) as (Hw2 & He2 & Hc2 & Hn2).
    repeat split; auto.
    + eapply keeps_trans; eauto.
    + intro Hc. apply Hc2. exact (unify_chains_end _ _ _ _ _ Ha Hb Hs E Hc).
    + intro Hn. apply Hn2. exact (unify_never_binds_anon _ _ _ _ _ Ha Hb Hs E Hn).
Qed.

Lemma no_anon_nil : no_anon_binding [].
Proof. intros i H. now rewrite ss_get_nil in H. Qed.

(* `ends_at ss v t`: following bindings from the variable t ends at the unbound variable v *)
Inductive ends_at (ss : subst) (v : N) : term -> Prop :=
| ends_here n : v <> 0 -> ss_get ss v = None -> ends_at ss v (TVar v n)
| ends_step id n t : id <> 0 -> ss_get ss id = Some t -> ends_at ss v t -> ends_at ss v (TVar id n).

Lemma ends_at_var ss t v : ends_at ss v t -> exists id n, t = TVar id n.
Proof. destruct 1; eauto. Qed.

Lemma ends_at_reaches ss t v : ends_at ss v t ->
  exists f0, forall f, (f0 <= f)%nat -> chain_reaches f v t ss = Ok true.
Proof.
  induction 1 as [n Hv Hn|id n t Hid Hg He [f0 IH]].
  - exists O. intros f _. destruct f; simpl; now rewrite N.eqb_refl.
  - exists (S f0). intros f Hf. destruct f as [|f]; [lia|]. simpl.
    destruct (N.eqb_spec id v) as [|Hne]; [reflexivity|]. rewrite Hg. apply IH. lia.
Qed.

Theorem unify_aliased_noop ss a b v :
  ends_at ss v a -> ends_at ss v b ->
  exists f0, forall f, (f0 <= f)%nat -> unify f a b ss = Ok (Some ss).
Proof.
  intros Ha Hb. destruct (ends_at_reaches _ _ _ Hb) as [fb Hfb].
  destruct (ends_at_var _ _ _ Hb) as (idb & nb & ->). clear Hb.
  induction Ha as [n Hv Hn|id n t Hid Hg He [f0 IH]].
  - exists (S fb). intros f Hf. destruct f as [|f]; [lia|]. rewrite unify_S. unfold unify_body.
    destruct (term_eqb (TVar v n) (TVar idb nb)); [reflexivity|]. simpl.
    destruct (N.eqb_spec v 0) as [|_]; [contradiction|]. rewrite Hn.
    rewrite Hfb by lia. reflexivity.
  - exists (S f0). intros f Hf. destruct f as [|f]; [lia|]. rewrite unify_S. unfold unify_body.
    destruct (term_eqb (TVar id n) (TVar idb nb)); [reflexivity|]. simpl.
    destruct (N.eqb_spec id 0) as [|_]; [contradiction|]. rewrite Hg. apply IH. lia.
Qed.

(* C08, total correctness: on substitution sets that have a solution in finite trees
   (Spec/SpecUnifySem.v) and whose variable-to-variable chains end (chains_end, which every
   sequence of unifications keeps: Properties/C08base.v), following bindings, resolving a term
   (replace_variables) and unifying two unifiable terms TERMINATE - the model's fuel is only a
   device, there is a fuel from which on the result is always the same.

   What is NOT true (compiled witnesses at the end):
     - a solvable set can have a cycle of VARIABLES ($X -> $Y -> $X is solved by every constant
       valuation): chains_end is a separate hypothesis;
     - `plain` does not look at the `next` of a tail node; a hand-built node there can close a
       cycle that no valuation sees: resolving needs lists as the parser builds them (`tok`);
     - unification does NOT terminate on every solvable input: without occurs check
       f($X, $Y, $X) = f(g($X), g($Y), $Y) binds $X -> g($X), $Y -> g($Y) and then loops on $X = $Y.
       It terminates whenever the two terms are unifiable over finite trees (then with success,
       by C06), not whenever they are not. *)
From Coq Require Import Lia.
From Suiron Require Import Model.Term Model.Subst Model.Show Model.Lists Model.Arith Model.Unify
  Model.Builtins Spec.SpecCompare Spec.SpecUnify Spec.SpecUnifySem
  Proofs.UnifyInv Proofs.UnifyProps Proofs.UnifyComplete Proofs.UnifySemTeq.
Open Scope N_scope.

(* "for every large enough fuel" *)
Definition ev (P : nat -> Prop) : Prop := exists f0, forall f, (f0 <= f)%nat -> P f.

Lemma ev_const (P : Prop) : P -> ev (fun _ => P).
Proof. intro H. exists 0%nat. auto. Qed.
Lemma ev_ge n : ev (fun f => (n <= f)%nat).
Proof. exists n. auto. Qed.
Lemma ev_and P Q : ev P -> ev Q -> ev (fun f => P f /\ Q f).
Proof. intros [a Ha] [b Hb]. exists (Nat.max a b). intros f H. split; [apply Ha|apply Hb]; lia. Qed.
Lemma ev_mono (P Q : nat -> Prop) : (forall f, P f -> Q f) -> ev P -> ev Q.
Proof. intros H [a Ha]. exists a. auto. Qed.
Lemma ev_S (P : nat -> Prop) : ev P -> ev (fun f => match f with O => False | S f' => P f' end).
Proof. intros [a Ha]. exists (S a). intros [|f] L; [lia|]. apply Ha. lia. Qed.
Lemma ev_ex (P : nat -> Prop) : ev P -> exists f, P f.
Proof. intros [a Ha]. exists a. auto. Qed.
Lemma ev_all (P : nat -> Prop) : (forall f, P f) -> ev P.
Proof. intro H. exists 0%nat. auto. Qed.

(* `run` halts: from some fuel on it returns one and the same result, and not OutOfFuel *)
Definition halts {A} (run : nat -> res A) : Prop := exists r, r <> OutOfFuel /\ ev (fun f => run f = r).

Lemma halts_now {A} (r : res A) (run : nat -> res A) : r <> OutOfFuel -> (forall f, run f = r) -> halts run.
Proof. intros Nr H. exists r. split; [exact Nr|]. now apply ev_all. Qed.

Lemma halts_ext {A} (run run' : nat -> res A) : (forall f, run' f = run f) -> halts run -> halts run'.
Proof. intros H (r & Nr & E). exists r. split; [exact Nr|]. revert E. apply ev_mono. intros f <-. apply H. Qed.

(* sequencing: the continuation has to halt only on values the first run can return *)
Lemma halts_bind {A B} (run : nat -> res A) (k : nat -> A -> res B) :
  halts run -> (forall a, (exists f, run f = Ok a) -> halts (fun f => k f a)) ->
  halts (fun f => bind (run f) (k f)).
Proof.
  intros (r & Nr & E) Hk. destruct r as [a| |]; [|exists Panic; split; [discriminate|]|contradiction].
  - destruct (Hk a (ev_ex _ E)) as (r2 & N2 & E2). exists r2. split; [exact N2|].
    generalize (ev_and _ _ E E2). apply ev_mono. intros f [-> H]. exact H.
  - revert E. apply ev_mono. intros f ->. reflexivity.
Qed.

(* the size of a value; the number of binding steps from a term *)
Fixpoint tsize (t : tree) : nat :=
  match t with
  | TrNode ts => S (fold_right (fun x a => tsize x + a)%nat 0%nat ts)
  | TrCons h t => S (tsize h + tsize t)
  | _ => 1%nat
  end.

Lemma tsize_pos t : (1 <= tsize t)%nat.
Proof. destruct t; cbn; lia. Qed.

Inductive crank (ss : subst) : term -> nat -> Prop :=
| crank_nonvar t : is_var t = false -> crank ss t 0
| crank_unbound id n : ss_get ss id = None -> crank ss (TVar id n) 0
| crank_step id n u k : ss_get ss id = Some u -> crank ss u k -> crank ss (TVar id n) (S k).

Lemma chains_crank ss : chains_end ss -> forall t, exists k, crank ss t k.
Proof.
  intros H t. destruct (H t) as [r Hr]. induction Hr as [t Hv|id n Hg|id n u r Hg _ [k IH]].
  - exists 0%nat. now constructor.
  - exists 0%nat. now constructor.
  - exists (S k). econstructor; eauto.
Qed.

(* Following bindings terminates: (T1) of Properties/C08.v *)
Lemma get_ground_term_ev ss t k : crank ss t k ->
  exists r, chain ss t r /\ forall f, (k <= f)%nat -> get_ground_term f t ss = Ok r.
Proof.
  induction 1 as [t Hv|id n Hg|id n u k Hg Hc (r & Hr & IH)].
  - exists (Some t). split; [now constructor|]. intros f _. destruct t; try discriminate; destruct f; reflexivity.
  - exists None. split; [now constructor|]. intros f _. destruct f; cbn; now rewrite Hg.
  - exists r. split; [econstructor; eauto|]. intros f L. destruct f as [|f]; [lia|].
    cbn [get_ground_term]. rewrite Hg. apply IH. lia.
Qed.

Theorem get_ground_term_terminates ss : chains_end ss ->
  forall t, exists r, chain ss t r /\ ev (fun f => get_ground_term f t ss = Ok r).
Proof.
  intros H t. destruct (chains_crank ss H t) as [k Hk].
  destruct (get_ground_term_ev ss t k Hk) as (r & Hr & Hf). exists r. split; [exact Hr|]. exists k. exact Hf.
Qed.

(* is_ground_variable says whether get_ground_term ends at a term, with no more fuel *)
Lemma is_ground_variable_follows ss : forall f id n r, get_ground_term f (TVar id n) ss = Ok r ->
  is_ground_variable_id f id ss = Ok (match r with Some _ => true | None => false end).
Proof.
  induction f as [|f IH]; intros id n r H; cbn [get_ground_term is_ground_variable_id] in *;
    destruct (ss_get ss id) as [u|]; try discriminate H; try (injection H as <-; reflexivity).
  destruct u; try (destruct f; injection H as <-; reflexivity). now apply (IH _ name).
Qed.

Lemma is_ground_variable_ev ss t k : crank ss t k -> forall id n, t = TVar id n ->
  exists r, chain ss t r /\
    forall f, (k <= f)%nat -> is_ground_variable_id f id ss = Ok (match r with Some _ => true | None => false end).
Proof.
  intros H id n ->. destruct (get_ground_term_ev ss _ k H) as (r & C & E). exists r. split; [exact C|].
  intros f L. apply (is_ground_variable_follows ss f id n), E, L.
Qed.

Lemma chain_reaches_ev ss id : forall o k, crank ss o k ->
  exists r, forall f, (k <= f)%nat -> chain_reaches f id o ss = Ok r.
Proof.
  intros o k H. induction H as [t Hv|oid n Hg|oid n u k Hg Hc (r & IH)].
  - exists false. intros f _. destruct t; try discriminate; destruct f; reflexivity.
  - destruct (oid =? id) eqn:E.
    + exists true. intros f _. destruct f; cbn; now rewrite E.
    + exists false. intros f _. destruct f; cbn; now rewrite E, Hg.
  - destruct (oid =? id) eqn:E.
    + exists true. intros f _. destruct f; cbn; now rewrite E.
    + exists r. intros f L. destruct f as [|f]; [lia|]. cbn [chain_reaches]. rewrite E, Hg. apply IH. lia.
Qed.

(* Resolving a term terminates: (T2) of Properties/C08.v.
   `tok`: lists as the parser and make_linked_list build them - the `next` of a tail node is the
   list terminator, the empty list node, which is what `is_term` recognises. *)
Definition is_term (t : term) : bool := match t with TList TNil TNil _ false => true | _ => false end.
Lemma is_term_inv t : is_term t = true -> exists c, t = TList TNil TNil c false.
Proof.
  destruct t as [| | | | | | |h nx c tv|]; try discriminate. destruct h; try discriminate.
  destruct nx; try discriminate. destruct tv; try discriminate. eauto.
Qed.

Fixpoint tok (t : term) : bool :=
  match t with
  | TComplex ts => forallb tok ts
  | TList h nx _ tv => tok h && (if tv then is_term nx else tok nx)
  | _ => true
  end.
Definition tok_ss (ss : subst) : Prop := forall id t, ss_get ss id = Some t -> tok t = true.

Fixpoint rvl (f : nat) (ts : list term) (ss : subst) : res (list term) :=
  match ts with
  | [] => Ok []
  | x :: l' => do x' <- replace_variables f x ss; do r <- rvl f l' ss; Ok (x' :: r)
  end.

Lemma rv_complex f ts ss : replace_variables (S f) (TComplex ts) ss = do l <- rvl f ts ss; Ok (TComplex l).
Proof.
  cbn [replace_variables]. f_equal. induction ts as [|x l IH]; [reflexivity|]. cbn [rvl]. now rewrite IH.
Qed.

Lemma tsize_in x ts : In x ts -> (tsize x < tsize (TrNode ts))%nat.
Proof.
  cbn [tsize]. induction ts as [|y l IH]; intros []; subst; cbn [fold_right]; [lia|]. specialize (IH H). lia.
Qed.

Section Resolve.
  Variable sigma : valuation.
  Variable ss : subst.
  Hypothesis Hplain : plain_ss ss.
  Hypothesis Htok : tok_ss ss.
  Hypothesis Hsol : solves sigma ss.
  Hypothesis Hch : chains_end ss.

  Definition RV (t : term) : Prop :=
    exists t', ev (fun f => replace_variables f t ss = Ok t') /\ den sigma t' = den sigma t /\
               is_nil t' = is_nil t.

  Lemma RV_const t : match t with TNil | TAnon | TAtom _ | TFloat _ | TInt _ => True | _ => False end -> RV t.
  Proof.
    intro H. exists t. split; [|split; reflexivity]. exists 1%nat. intros [|f] L; [lia|].
    destruct t; try contradiction; reflexivity.
  Qed.

  Lemma rvl_ev : forall ts, Forall RV ts ->
    exists l, ev (fun f => rvl f ts ss = Ok l) /\ map (den sigma) l = map (den sigma) ts.
  Proof.
    induction 1 as [|x l (x' & Ex & Dx & _) _ (l' & El & Dl)].
    - exists []. split; [exists 0%nat; reflexivity|reflexivity].
    - exists (x' :: l'). split; [|cbn [map]; now rewrite Dx, Dl].
      generalize (ev_and _ _ Ex El). apply ev_mono. intros f [E1 E2]. cbn [rvl]. now rewrite E1, E2.
  Qed.

  Definition plain_or_chain (t : term) : Prop := plain t = true \/ pl true t = true.

  Section Level.
    Variable N : nat.
    Hypothesis IHN : forall t, plain_or_chain t -> tok t = true -> (tsize (den sigma t) < N)%nat -> RV t.

    Lemma rv_list_node h nx c : pl true (TList h nx c false) = true -> tok (TList h nx c false) = true ->
      (tsize (den sigma (TList h nx c false)) <= N)%nat -> RV (TList h nx c false).
    Proof.
      intros P T L. cbn [pl] in P. cbn [tok] in T. apply andb_true_iff in T as [T1 T2]. cbn [den] in L.
      destruct (is_nil h) eqn:Eh.
      - destruct h; try discriminate Eh. destruct nx; try discriminate P.
        exists (TList TNil TNil c false). split; [|split; reflexivity].
        exists 2%nat. intros [|[|f]] Lf; try lia. reflexivity.
      - apply andb_true_iff in P as [P1 P2]. cbn [tsize] in L.
        destruct (IHN h (or_introl P1) T1 ltac:(lia)) as (h' & Eh' & Dh & Nh).
        destruct (IHN nx (or_intror P2) T2 ltac:(lia)) as (n' & En & Dn & _).
        exists (TList h' n' c false). split; [|split; [|reflexivity]].
        + generalize (ev_S _ (ev_and _ _ Eh' En)). apply ev_mono. intros [|f] H; [contradiction|].
          destruct H as [E1 E2]. cbn [replace_variables]. now rewrite E1, E2.
        + cbn [den]. now rewrite Dh, Dn, Nh, Eh.
    Qed.

    Lemma rv_nonvar t : plain t = true -> tok t = true -> is_var t = false ->
      (tsize (den sigma t) <= N)%nat -> RV t.
    Proof.
      intros P T V L. destruct t as [| |s|x|z|id n|ts|h nx c tv|fn args]; try discriminate P; try discriminate V;
        try (apply RV_const; exact I).
      - destruct (plain_complex_inv _ P) as (sa & rest & -> & Pr). cbn [tok forallb andb] in T.
        assert (Forall RV (TAtom sa :: rest)) as HF.
        { constructor; [apply RV_const; exact I|]. apply Forall_forall. intros x Hx.
          rewrite forallb_forall in Pr, T. apply IHN; [left; apply Pr, Hx|apply T, Hx|].
          cbn [den] in L. pose proof (tsize_in (den sigma x) (map (den sigma) (TAtom sa :: rest))
                                        (in_map (den sigma) (TAtom sa :: rest) x (or_intror Hx))) as Hlt. lia. }
        destruct (rvl_ev _ HF) as (l & El & Dl). exists (TComplex l). split; [|split; [|reflexivity]].
        + generalize (ev_S _ El). apply ev_mono. intros [|f] H; [contradiction|]. rewrite rv_complex, H. reflexivity.
        + cbn [den]. now rewrite Dl.
      - unfold plain in P. destruct tv; [discriminate P|]. apply rv_list_node; assumption.
    Qed.

    Lemma rv_var : forall k t, crank ss t k -> is_var t = true ->
      (tsize (den sigma t) <= N)%nat -> RV t.
    Proof.
      intros k t H. induction H as [t Hv|id n Hg|id n u k Hg Hc IH]; intros V L; [congruence| |].
      - exists (TVar id n). split; [|split; reflexivity]. exists 1%nat. intros [|f] Lf; [lia|]. cbn. now rewrite Hg.
      - pose proof (Hplain _ _ Hg) as Pu. pose proof (Htok _ _ Hg) as Tu.
        assert (den sigma u = den sigma (TVar id n)) as Du by (cbn [den]; symmetry; apply Hsol, Hg).
        assert (RV u) as (u' & Eu & Du' & Nu).
        { destruct (is_var u) eqn:Vu; [apply IH; [reflexivity|now rewrite Du]|].
          apply rv_nonvar; try assumption. now rewrite Du. }
        exists u'. split; [|split; [now rewrite Du', Du|now rewrite Nu, (plain_not_nil _ Pu)]].
        generalize (ev_S _ Eu). apply ev_mono. intros [|f] H; [contradiction|]. cbn [replace_variables]. now rewrite Hg.
    Qed.

    Lemma rv_level t : plain_or_chain t -> tok t = true -> (tsize (den sigma t) <= N)%nat -> RV t.
    Proof.
      intros O T L. destruct (is_var t) eqn:V.
      { destruct (chains_crank ss Hch t) as [k Hk]. eapply rv_var; eauto. }
      destruct O as [P|P]; [apply rv_nonvar; assumption|].
      destruct (pl_chain_list _ P) as (h & nx & c & tv & ->). destruct tv; [|apply rv_list_node; assumption].
      cbn [pl andb] in P. cbn [tok] in T. apply andb_true_iff in T as [_ T2]. destruct h; try discriminate P.
      destruct (is_term_inv _ T2) as [c0 ->].
      destruct (chains_crank ss Hch (TVar id name)) as [k Hk].
      destruct (rv_var k _ Hk eq_refl L) as (h' & Eh & Dh & _).
      exists (TList h' (TList TNil TNil c0 false) c true). split; [|split; [cbn [den] in *; exact Dh|reflexivity]].
      generalize (ev_and _ _ (ev_ge 3) (ev_S _ Eh)). apply ev_mono. intros [|[|[|f]]] [Lf H]; try lia.
      cbn [replace_variables] in *. rewrite H. reflexivity.
    Qed.
  End Level.

  Theorem replace_variables_terminates : forall t, plain_or_chain t -> tok t = true -> RV t.
  Proof.
    assert (forall N t, plain_or_chain t -> tok t = true -> (tsize (den sigma t) < N)%nat -> RV t) as H.
    { induction N as [|N IH]; intros t O T L; [lia|]. apply (rv_level N IH); [assumption..|lia]. }
    intros t O T. apply (H (S (tsize (den sigma t)))); [assumption..|lia].
  Qed.
End Resolve.

(* Unification of unifiable terms terminates: (T3) of Properties/C08.v.
   Of the three shapes asked of operands, `plain` does not look at the `next` of a tail node, `tok`
   asks only that it be the list terminator, `wf_term` asks atom functors everywhere, there too;
   outside that position `plain` gives the atom functors, so a plain term that is `tok` is `wf_term`. *)
Lemma crank_var_bound ss id n u k : crank ss (TVar id n) k -> ss_get ss id = Some u ->
  exists k', k = S k' /\ crank ss u k'.
Proof.
  intros H Hg. inversion H; subst; try discriminate; try congruence.
  exists k0. split; [reflexivity|]. congruence.
Qed.
Lemma crank_nonvar_0 ss t k : is_var t = false -> crank ss t k -> k = 0%nat.
Proof. intros V H. inversion H; subst; try reflexivity; discriminate. Qed.

Section Unif.
  Variable sigma : valuation.

  Definition plain_wf (t : term) : Prop := plain t = true /\ wf_term t = true.
  Definition chain_wf (t : term) : Prop := pl true t = true /\ wf_term t = true.
  Definition Inv (ss : subst) : Prop := plain_ss ss /\ wf_ss ss /\ chains_end ss /\ solves sigma ss.

  Lemma inv_after f a b ss u : Inv ss -> plain_wf a -> plain_wf b -> den sigma a = den sigma b ->
    unify f a b ss = Ok u -> exists s1, u = Some s1 /\ Inv s1.
  Proof.
    intros (P & W & C & S) [Pa Wa] [Pb Wb] D H.
    destruct (unify_general_complete_fun f a b ss u sigma Pa Pb P H S D) as (s1 & -> & S1).
    exists s1. split; [reflexivity|].
    destruct (unify_ssound f a b ss s1 H Pa Pb P) as (P1 & _ & _).
    destruct (unify_extends f a b ss s1 Wa Wb W H) as (_ & W1).
    pose proof (unify_chains_end f a b ss s1 Wa Wb W H C) as C1.
    repeat split; assumption.
  Qed.

  (* 1 when the operands are (non-variable, variable): unify swaps them, which is progress *)
  Definition sw (a b : term) : nat := if negb (is_var a) && is_var b then 1%nat else 0%nat.

  Lemma chain_wf_node_inv c0 h nx c : pl c0 (TList h nx c false) = true -> wf_term (TList h nx c false) = true ->
    (is_nil h = true /\ is_nil nx = true) \/ (is_nil h = false /\ plain_wf h /\ chain_wf nx).
  Proof.
    cbn [pl wf_term]. intros P W. apply andb_true_iff in W as [W1 W2].
    destruct (is_nil h); [left; auto|]. apply andb_true_iff in P as [P1 P2]. right. repeat split; assumption.
  Qed.

  Lemma plain_wf_complex_inv ts : plain_wf (TComplex ts) -> Forall plain_wf ts.
  Proof.
    intros [P W]. destruct (plain_complex_inv _ P) as (s & rest & -> & Pr).
    destruct (wf_complex_inv _ _ W) as [_ Wr]. constructor; [now split|].
    apply Forall_forall. intros x Hx. rewrite forallb_forall in Pr, Wr. split; auto.
  Qed.

  Lemma halts_unify_body a b ss : halts (fun f => unify_body (unify f) f a b ss) -> halts (fun f => unify f a b ss).
  Proof.
    intros (r & Nr & E). exists r. split; [exact Nr|]. generalize (ev_S _ E). apply ev_mono.
    intros [|f] H; [contradiction|exact H].
  Qed.

  (* one level of unify on plain operands that are not equal *)
  Lemma body_swap rec f a b ss : plain a = true -> is_var a = false -> is_var b = true ->
    unify_body rec f a b ss = rec b a ss.
  Proof. intros Pa Va Vb. destruct b; try discriminate Vb. destruct a; try discriminate; reflexivity. Qed.

  Lemma body_nonvar a b : plain a = true -> plain b = true -> is_var a = false -> is_var b = false ->
    term_eqb a b = false ->
    (exists ls rs, a = TComplex ls /\ b = TComplex rs) \/
    (exists h1 n1 c1 h2 n2 c2, a = TList h1 n1 c1 false /\ b = TList h2 n2 c2 false) \/
    forall rec f ss, unify_body rec f a b ss = Ok None.
  Proof.
    intros Pa Pb Va Vb E. unfold plain in Pa, Pb.
    destruct a as [| | | | | | |? ? ? []|]; try discriminate; destruct b as [| | | | | | |? ? ? []|]; try discriminate;
      try (right; right; cbn [term_eqb] in E; intros; unfold unify_body; cbn [term_eqb is_anon];
           try rewrite !E; reflexivity).
    - left. eauto.
    - right. left. eauto 10.
  Qed.

  Section Level.
    Variable n : nat.
    Hypothesis IHn : forall a b ss, plain_wf a -> plain_wf b -> Inv ss -> den sigma a = den sigma b ->
      (tsize (den sigma a) < n)%nat -> halts (fun f => unify f a b ss).

    Lemma ut_args : forall ls rs s s2, Forall plain_wf ls -> Forall plain_wf rs ->
      map (den sigma) ls = map (den sigma) rs -> (forall x, In x ls -> (tsize (den sigma x) < n)%nat) ->
      Inv s -> halts (fun f => unify_args (unify f) ls rs s s2).
    Proof.
      induction ls as [|l ls IH]; intros rs s s2 Hl Hr Hm Hs Hi.
      - apply (halts_now (Ok (Some s2))); [discriminate|reflexivity].
      - destruct rs as [|r0 rs]; [discriminate Hm|]. injection Hm as Hd Hm.
        inversion Hl as [|? ? Hl1 Hl2]; inversion Hr as [|? ? Hr1 Hr2]; subst. cbn [unify_args].
        rewrite (plain_not_anon _ (proj1 Hl1)), (plain_not_anon _ (proj1 Hr1)). cbn [orb].
        apply (halts_bind (fun f => unify f l r0 s)); [apply IHn; auto using in_eq|].
        intros u [f1 Hf1]. destruct (inv_after _ _ _ _ _ Hi Hl1 Hr1 Hd Hf1) as (s1 & -> & Hi1).
        apply IH; auto using in_cons.
    Qed.

    (* The first call comes from ut_body with two list nodes of size <= n; a tail node is met only
       below a node, and hands its variable (of the same value) over to IHn, which needs `<`. *)
    Lemma ut_lists : forall this other s, chain_wf this -> chain_wf other ->
      den sigma this = den sigma other -> (tsize (den sigma this) <= n)%nat ->
      ((exists h nx c, this = TList h nx c true) \/ (exists h nx c, other = TList h nx c true) ->
       (tsize (den sigma this) < n)%nat) ->
      Inv s -> halts (fun f => unify_lists (unify f) this other s).
    Proof.
      induction this as [| |x|x|x|x y|x|th _ tnx IH c ttv|x y];
        intros other s [Pt Wt] [Po Wo] Hd Hle Htv Hi; try discriminate Pt;
        try (apply pl_chain_list in Pt as (? & ? & ? & ? & E); discriminate E).
      destruct (pl_chain_list _ Po) as (oh & onx & oc & otv & ->).
      cbn [unify_lists is_nil orb]. destruct ttv, otv; cbn [andb].
      - cbn [pl andb] in Pt, Po. destruct th; try discriminate Pt. destruct oh; try discriminate Po.
        apply (IHn (TVar id name) (TVar id0 name0) s (conj eq_refl eq_refl) (conj eq_refl eq_refl) Hi Hd), Htv.
        left; eauto.
      - cbn [pl andb] in Pt. destruct th; try discriminate Pt.
        apply (IHn (TVar id name) (TList oh onx oc false) s (conj eq_refl eq_refl) (conj Po Wo) Hi Hd), Htv.
        left; eauto.
      - cbn [pl andb] in Po. destruct oh; try discriminate Po.
        apply (IHn (TVar id name) (TList th tnx c false) s (conj eq_refl eq_refl) (conj Pt Wt) Hi (eq_sym Hd)).
        change (den sigma (TVar id name)) with (den sigma (TList (TVar id name) onx oc true)).
        rewrite <- Hd. apply Htv. right; eauto.
      - destruct (chain_wf_node_inv _ _ _ _ Pt Wt) as [[A1 A2]|(A1 & A2 & A3)],
                 (chain_wf_node_inv _ _ _ _ Po Wo) as [[B1 B2]|(B1 & B2 & B3)];
          cbn [den] in Hd, Hle; rewrite A1 in Hd, Hle |- *; rewrite B1 in Hd |- *; try discriminate Hd; cbn [andb].
        + apply (halts_now (Ok (Some s))); [discriminate|reflexivity].
        + injection Hd as Hd1 Hd2. cbn [tsize] in Hle.
          apply (halts_bind (fun f => unify f th oh s)); [apply IHn; auto; lia|].
          intros u [f1 Hf1]. destruct (inv_after _ _ _ _ _ Hi A2 B2 Hd1 Hf1) as (s1 & -> & Hi1).
          apply IH; auto; [lia|intros _; lia].
    Qed.

    (* Outer induction (Section Level) on the size of the common value, strict only where unify goes
       into arguments or list elements; following a binding and swapping keep the value, so inside one
       level the induction is on k = 2 * (chain lengths) + sw. *)
    Lemma ut_body : forall k a b ss ra rb, crank ss a ra -> crank ss b rb -> k = (2 * (ra + rb) + sw a b)%nat ->
      plain_wf a -> plain_wf b -> Inv ss -> den sigma a = den sigma b ->
      (tsize (den sigma a) <= n)%nat -> halts (fun f => unify f a b ss).
    Proof.
      induction k as [k IHk] using lt_wf_ind. intros a b ss ra rb Ca Cb Hk Ha Hb Hi Hd Hle.
      pose proof Ha as [Pa Wa]. pose proof Hb as [Pb Wb]. apply halts_unify_body.
      destruct (term_eqb a b) eqn:Eeq.
      { apply (halts_now (Ok (Some ss))); [discriminate|]. intro f. unfold unify_body. now rewrite Eeq. }
      destruct (is_var a) eqn:Va.
      - destruct a as [| | | | |id name| | |]; try discriminate Va.
        pose proof (plain_not_anon _ Pb) as Ab.
        assert (forall name args, b <> TFun name args) as Fb by (intros ? ? ->; discriminate Pb).
        destruct (id =? 0) eqn:E0.
        { apply (halts_now Panic); [discriminate|]. intro f. now rewrite (body_var _ _ _ _ _ _ Eeq Ab Fb), E0. }
        destruct (ss_get ss id) as [u|] eqn:Eg.
        + apply (halts_ext (fun f => unify f u b ss)); [intro f; now rewrite (body_var _ _ _ _ _ _ Eeq Ab Fb), E0, Eg|].
          destruct (crank_var_bound _ _ _ _ _ Ca Eg) as (ka & -> & Cu).
          pose proof Hi as (P & W & C & S).
          assert (den sigma u = sigma id) as Du by (symmetry; apply S, Eg).
          apply (IHk (2 * (ka + rb) + sw u b)%nat) with (ra := ka) (rb := rb); try assumption; try reflexivity.
          * subst k. unfold sw. cbn [is_var negb andb]. destruct (negb (is_var u) && is_var b); lia.
          * split; [apply (P _ _ Eg)|apply (W _ _ Eg)].
          * now rewrite Du, <- Hd.
          * now rewrite Du.
        + destruct (chain_reaches_ev ss id b rb Cb) as (al & Hal).
          exists (Ok (Some (if al then ss else ss_set ss id b))). split; [discriminate|].
          exists rb. intros f L. now rewrite (body_var _ _ _ _ _ _ Eeq Ab Fb), E0, Eg, (Hal f L).
      - destruct (is_var b) eqn:Vb.
        + (* b is a variable and a is not: the operands are swapped *)
          apply (halts_ext (fun f => unify f b a ss)); [intro f; now apply body_swap|].
          apply (IHk (2 * (rb + ra) + sw b a)%nat) with (ra := rb) (rb := ra); try assumption; try reflexivity.
          * subst k. unfold sw. rewrite Va, Vb. cbn. lia.
          * now symmetry.
          * now rewrite <- Hd.
        + destruct (body_nonvar a b Pa Pb Va Vb Eeq)
            as [(ls & rs & -> & ->)|[(h1 & n1 & c1 & h2 & n2 & c2 & -> & ->)|Hnone]].
          * cbn [den] in Hd, Hle. injection Hd as Hd.
            apply (halts_ext (fun f => unify_args (unify f) ls rs ss [])).
            { intro f. unfold unify_body. rewrite Eeq. cbn [is_anon].
              now rewrite <- (map_length (den sigma) ls), Hd, map_length, Nat.eqb_refl. }
            apply ut_args; auto using plain_wf_complex_inv.
            intros x Hx. apply (in_map (den sigma)), tsize_in in Hx. lia.
          * apply (halts_ext (fun f => unify_lists (unify f) (TList h1 n1 c1 false) (TList h2 n2 c2 false) ss));
              [intro f; unfold unify_body; now rewrite Eeq|].
            apply ut_lists; auto. intros [(? & ? & ? & Hx)|(? & ? & ? & Hx)]; discriminate Hx.
          * apply (halts_now (Ok None)); [discriminate|]. intro f. apply Hnone.
    Qed.
  End Level.

  (* unifiable terms: unify terminates (and then, by C06, succeeds; Panic only for a variable id 0) *)
  Theorem unify_terminates : forall a b ss, plain_wf a -> plain_wf b -> Inv ss ->
    den sigma a = den sigma b -> halts (fun f => unify f a b ss).
  Proof.
    assert (forall n a b ss, plain_wf a -> plain_wf b -> Inv ss -> den sigma a = den sigma b ->
              (tsize (den sigma a) < n)%nat -> halts (fun f => unify f a b ss)) as H.
    { induction n as [|n IH]; intros a b ss Ha Hb Hi Hd L; [lia|].
      destruct Hi as (P & W & C & S).
      destruct (chains_crank ss C a) as [ra Ca]. destruct (chains_crank ss C b) as [rb Cb].
      eapply (ut_body n IH _ a b ss ra rb Ca Cb eq_refl Ha Hb); [repeat split; assumption|exact Hd|lia]. }
    intros a b ss Ha Hb Hi Hd. apply (H (S (tsize (den sigma a)))); [assumption..|lia].
  Qed.
End Unif.

(* C06 + termination: on unifiable input unify DECIDES: from some fuel on the result is fixed, and
   it is a success whose substitution set is again solvable by the same valuation, plain,
   well-formed and without variable cycles (Panic is the model's answer for a variable with id 0,
   where the implementation panics too). *)
Theorem unify_total sigma a b ss : plain_wf a -> plain_wf b -> Inv sigma ss -> den sigma a = den sigma b ->
  exists f0 r, (forall f, (f0 <= f)%nat -> unify f a b ss = r) /\
               (r = Panic \/ exists ss', r = Ok (Some ss') /\ Inv sigma ss').
Proof.
  intros Ha Hb Hi Hd. destruct (unify_terminates sigma a b ss Ha Hb Hi Hd) as (r & Nr & [f0 Hf]).
  exists f0, r. split; [exact Hf|]. destruct r as [u| |]; [right|now left|contradiction].
  destruct (inv_after sigma f0 a b ss u Hi Ha Hb Hd (Hf f0 (le_n _))) as (s1 & -> & Hi1). eauto.
Qed.

(* `tok` (lists as the parser builds them) is inherited by parts, so every binding unify makes
   has it *)
Lemma tok_parts : parts_closed (fun t => tok t = true) (fun t => tok t = true).
Proof.
  split.
  - intros ts T. cbn [tok] in T. apply Forall_forall. now rewrite forallb_forall in T.
  - auto.
  - intros h nx c T. now apply andb_true_iff in T as [T _].
  - intros h nx c T. split; [exact T|]. right. now apply andb_true_iff in T.
  - intros name args v _ Hv. destruct v; try discriminate; reflexivity.
Qed.

Theorem unify_keeps_tok fuel a b ss ss' : tok a = true -> tok b = true -> tok_ss ss ->
  unify fuel a b ss = Ok (Some ss') -> tok_ss ss'.
Proof.
  intros Ta Tb Ts H.
  refine (proj2 (unify_inv _ _ tok_parts (fun _ _ => True) _ _ _ _ fuel a b ss ss' H Ta Tb Ts)); auto.
Qed.

(* witnesses: what does NOT terminate *)
Definition wX := TVar 1 [36; 88]%N.
Definition wY := TVar 2 [36; 89]%N.

(* 1. a cycle of variables is solvable (by any constant valuation) but following it never ends *)
Example variable_cycle :
  let ss := [None; Some wY; Some wX] in
  solves (fun _ => TrNil) ss /\ plain_ss ss /\ forall f, get_ground_term f wX ss = OutOfFuel.
Proof.
  cbn zeta. split; [|split].
  - intros id t H. unfold ss_get in H. destruct (N.to_nat id) as [|[|[|n]]]; cbn in H; try discriminate;
      try (inversion H; subst; reflexivity). destruct n; discriminate.
  - intros id t H. unfold ss_get in H. destruct (N.to_nat id) as [|[|[|n]]]; cbn in H; try discriminate;
      try (inversion H; subst; reflexivity). destruct n; discriminate.
  - assert (forall f, get_ground_term f wX [None; Some wY; Some wX] = OutOfFuel /\
                      get_ground_term f wY [None; Some wY; Some wX] = OutOfFuel) as H.
    { induction f as [|f [IH1 IH2]]; [split; reflexivity|]. split; cbn [get_ground_term wX wY]; cbn; assumption. }
    intro f. apply H.
Qed.

(* 2. a hand-built `next` of a tail node can close a cycle no valuation sees: plain, solvable,
   no variable cycle - and resolving $X never ends *)
Definition wT := TVar 2 [36; 84]%N.
Definition wjunk := TList (TAtom [97]%N) (TList wT wX 1 true) 2 false.
Example junk_next :
  let ss := [None; Some wjunk; None] in
  plain wjunk = true /\ tok wjunk = false /\
  solves (fun id => if id =? 1 then TrCons (TrAtom [97]%N) TrNil else TrNil) ss /\
  forall f, replace_variables f wX ss = OutOfFuel.
Proof.
  cbn zeta. split; [reflexivity|]. split; [reflexivity|]. split.
  - intros id t H. unfold ss_get in H. destruct (N.to_nat id) as [|[|[|n]]] eqn:E; cbn in H; try discriminate.
    + inversion H; subst. apply (f_equal N.of_nat) in E. rewrite N2Nat.id in E. subst id. reflexivity.
    + destruct n; discriminate.
  - (* three levels down $X is resolved again: inside the `next` of the tail node *)
    induction f as [f IH] using lt_wf_ind. do 4 (destruct f as [|f]; [reflexivity|]).
    change (replace_variables (S (S (S (S f)))) wX [None; Some wjunk; None])
      with (do n' <- (do x' <- replace_variables (S f) wX [None; Some wjunk; None]; Ok (TList wT x' 1 true));
            Ok (TList (TAtom [97]) n' 2 false)).
    rewrite IH by lia. reflexivity.
Qed.

(* 3. no occurs check: f($X, $Y, $X) = f(g($X), g($Y), $Y) - plain terms, the empty (solvable) set -
   binds $X -> g($X) and $Y -> g($Y) and then unifies $X with $Y for ever.  The two terms are not
   unifiable over finite trees; unify does not find that out. *)
Definition wgf := TAtom [103]%N.
Definition wg (t : term) := TComplex [wgf; t].
Definition wf3 (a b c : term) := TComplex [TAtom [102]%N; a; b; c].
Definition wss : subst := [None; Some (wg wX); Some (wg wY)].

(* eight levels down the same two variables are unified again, in either order *)
Lemma occurs_loop : forall f, unify f wX wY wss = OutOfFuel /\ unify f wY wX wss = OutOfFuel.
Proof.
  assert (forall a b, a = wX /\ b = wY \/ a = wY /\ b = wX -> forall f, unify f a b wss = OutOfFuel) as H.
  { intros a b Hab. induction f as [f IH] using lt_wf_ind. do 9 (destruct f as [|f]; [now destruct Hab as [[-> ->]|[-> ->]]|]).
    pose proof (IH (S f) ltac:(lia)) as E.
    assert (unify (S f) wgf wgf wss = Ok (Some wss)) as Eg by reflexivity.
    do 8 rewrite unify_S. revert E Eg. generalize (unify (S f)). intros rec E Eg.
    destruct Hab as [[-> ->]|[-> ->]]; cbv in E, Eg |- *; rewrite Eg, E; reflexivity. }
  intro f. split; apply H; auto.
Qed.

Example occurs_check_diverges :
  plain (wf3 wX wY wX) = true /\ plain (wf3 (wg wX) (wg wY) wY) = true /\
  forall f, unify f (wf3 wX wY wX) (wf3 (wg wX) (wg wY) wY) [] = OutOfFuel.
Proof.
  split; [reflexivity|]. split; [reflexivity|]. intros [|[|f]]; try reflexivity.
  (* the first three argument pairs bind $X and $Y; the fourth is the loop *)
  pose proof (proj1 (occurs_loop (S f))) as E3.
  assert (unify (S f) (TAtom [102]) (TAtom [102]) [] = Ok (Some [])) as E0 by reflexivity.
  assert (unify (S f) wX (wg wX) [] = Ok (Some [None; Some (wg wX)])) as E1 by (destruct f; reflexivity).
  assert (unify (S f) wY (wg wY) [None; Some (wg wX)] = Ok (Some wss)) as E2 by (destruct f; reflexivity).
  rewrite unify_S.
  revert E0 E1 E2 E3. generalize (unify (S f)). intros rec E0 E1 E2 E3.
  cbv in E0, E1, E2, E3 |- *. rewrite E0, E1, E2, E3. reflexivity.
Qed.

(* The term-level parsers of Model/ParseTerm.v and Model/ParseGoal.v.
   Totality (C18, term level): with fuel >= length + 2 no entry point panics or runs out of fuel.
   The index arithmetic of the crate is met by three facts: slice_ok (bounds of a slice),
   equal_escape_ee (an index below the length) and indices_of_parentheses_bounds; every body is
   total given recursive calls that are total on shorter texts (Section BodiesTotal), and
   parse_ok_below ties the knot by induction on the length.
   Context independence (C20): pa_scan / pll_scan follow the two scanning loops over a text that
   holds no top-level separator; on such a text each context hands the same text to parse_term. *)
From Coq Require Import Lia String.
From Suiron Require Import Model.ParseTerm Model.ParseGoal.
Open Scope N_scope.

(* `is_ok r`: neither Panic nor OutOfFuel - what the proofs carry.  `value_or_error r` is the same for a
   parser result, spelled as the disjunction the C18 statements show (is_ok_value_or_error). *)
Definition is_ok {A} (r : res A) : Prop := match r with Ok _ => True | _ => False end.

Lemma is_ok_Ok {A} (a : A) : is_ok (Ok a).
Proof. exact I. Qed.

Lemma is_ok_inv {A} (r : res A) : is_ok r -> exists a, r = Ok a.
Proof. destruct r; simpl; intros H; try contradiction. eauto. Qed.

Lemma is_ok_bind {A B} (r : res A) (k : A -> res B) :
  is_ok r -> (forall a, r = Ok a -> is_ok (k a)) -> is_ok (bind r k).
Proof. destruct r; simpl; intros H Hk; try contradiction. now apply Hk. Qed.

Lemma is_ok_pbind {A B} (r : res (presult A)) (k : A -> res (presult B)) :
  is_ok r -> (forall a, r = Ok (POk a) -> is_ok (k a)) -> is_ok (pbind r k).
Proof. destruct r as [[a|]| |]; simpl; intros H Hk; try contradiction; auto. Qed.

Lemma is_ok_pok {A} (a : A) : is_ok (pok a).
Proof. exact I. Qed.
Lemma is_ok_perr {A} : is_ok (@perr A).
Proof. exact I. Qed.

Definition value_or_error {A} (r : res (presult A)) : Prop :=
  r = Ok PErr \/ exists v, r = Ok (POk v).

Lemma is_ok_value_or_error {A} (r : res (presult A)) : is_ok r -> value_or_error r.
Proof.
  destruct r as [[a|]| |]; simpl; intros H; try contradiction.
  - right; eauto.
  - now left.
Qed.

Lemma trim_start_length s : (length (trim_start s) <= length s)%nat.
Proof. induction s as [|c r IH]; cbn [trim_start length]; [lia|]. destruct (is_white c); cbn [length]; lia. Qed.

Lemma trim_length s : (length (trim s) <= length s)%nat.
Proof.
  unfold trim. rewrite rev_length.
  etransitivity; [apply trim_start_length|]. rewrite rev_length. apply trim_start_length.
Qed.

Lemma trim_start_keeps c s : In c s -> is_white c = false -> In c (trim_start s).
Proof.
  induction s as [|x r IH]; cbn [trim_start In]; [tauto|]. intros [->|Hin] Hw.
  - rewrite Hw. now left.
  - destruct (is_white x); [auto|]. now right.
Qed.

Lemma trim_keeps c s : In c s -> is_white c = false -> In c (trim s).
Proof.
  intros Hin Hw. unfold trim. apply in_rev. rewrite rev_involutive.
  apply trim_start_keeps; [|exact Hw]. apply -> in_rev. now apply trim_start_keeps.
Qed.

Lemma slice_ok v a b :
  (a <= b)%nat -> (b <= length v)%nat -> slice v a b = Ok (firstn (b - a) (skipn a v)).
Proof.
  intros H1 H2. unfold slice.
  apply Nat.leb_le in H1. apply Nat.leb_le in H2. now rewrite H1, H2.
Qed.

Lemma slice_length v a b s : slice v a b = Ok s -> (length s = b - a /\ a <= b /\ b <= length v)%nat.
Proof.
  unfold slice. destruct (a <=? b)%nat eqn:E1; [|discriminate].
  destruct (b <=? length v)%nat eqn:E2; [|discriminate]. simpl.
  apply Nat.leb_le in E1. apply Nat.leb_le in E2.
  intros H; inversion H; subst. rewrite firstn_length, skipn_length. lia.
Qed.

(* equal_escape as a boolean, for an index inside the vector *)
Definition ee (v : str) (ind : nat) (ch : N) : bool :=
  match nth_error v ind with
  | Some c =>
      (c =? ch) &&
      match ind with
      | O => true
      | S p => match nth_error v p with Some b => negb (b =? c_bslash) | None => true end
      end
  | None => false
  end.

Lemma equal_escape_ee v ind ch : (ind < length v)%nat -> equal_escape v ind ch = Ok (ee v ind ch).
Proof.
  intros H. unfold equal_escape, ee.
  destruct (nth_error v ind) as [c|] eqn:E; [|apply nth_error_None in E; lia].
  destruct (c =? ch); [|reflexivity]. cbn [andb].
  destruct ind as [|p]; [reflexivity|].
  destruct (nth_error v p) as [b|] eqn:E2; [reflexivity|]. apply nth_error_None in E2. lia.
Qed.

Lemma check_quotes_ok s count : (count = 2 -> s <> []) -> is_ok (check_quotes s count).
Proof.
  intros H. unfold check_quotes.
  destruct (count =? 0); [exact I|]. destruct (count =? 2) eqn:E; simpl; [|exact I].
  apply N.eqb_eq in E. destruct s as [|f r]; [now elim (H E)|].
  destruct (f =? c_dquote); cbn [negb]; [|exact I].
  destruct (negb (last (f :: r) 0 =? c_dquote)); exact I.
Qed.

Lemma link_front_list t b l : is_list l = true -> exists l', link_front t b l = Ok l' /\ is_list l' = true.
Proof. destruct l; simpl; try discriminate. intros _. eexists; split; reflexivity. Qed.

Lemma dquote_not_white : is_white c_dquote = false.
Proof. reflexivity. Qed.

Lemma iop_loop_inv rest : forall i lft rgt cl cr l' r' cl' cr',
  iop_loop rest i lft rgt cl cr = (l', r', cl', cr') ->
  (-1 <= lft < Z.of_nat i)%Z -> (-1 <= rgt < Z.of_nat i)%Z -> (lft = rgt -> lft = -1)%Z ->
  (-1 <= l' < Z.of_nat (i + length rest))%Z /\ (-1 <= r' < Z.of_nat (i + length rest))%Z /\
  (l' = r' -> l' = -1)%Z.
Proof.
  induction rest as [|ch tl IH]; intros i lft rgt cl cr l' r' cl' cr' H Hl Hr Hne; cbn [iop_loop] in H.
  - inversion H; subst. simpl. rewrite Nat.add_0_r. auto.
  - replace (i + length (ch :: tl))%nat with (S i + length tl)%nat by (simpl; lia).
    destruct (ch =? c_lpar).
    + eapply IH; [exact H| | |].
      * destruct (lft =? -1)%Z; lia.
      * lia.
      * destruct (lft =? -1)%Z eqn:E; [lia|]. apply Z.eqb_neq in E. intros; lia.
    + destruct (ch =? c_rpar).
      * eapply IH; [exact H| | |]; lia.
      * eapply IH; [exact H| | |]; lia.
Qed.

Lemma indices_of_parentheses_bounds s l r :
  indices_of_parentheses s = POk (Some (l, r)) -> (l < r /\ r < length s)%nat.
Proof.
  unfold indices_of_parentheses.
  destruct (iop_loop s 0 (-1) (-1) 0 0) as [[[lft rgt] cl] cr] eqn:E.
  apply iop_loop_inv in E; [|simpl; lia|simpl; lia|auto]. simpl in E.
  destruct E as (Hl & Hr & Hne).
  destruct (negb (cl =? cr)); [discriminate|].
  destruct (rgt <? lft)%Z eqn:E1; [discriminate|]. apply Z.ltb_ge in E1.
  destruct (lft =? -1)%Z eqn:E2; [discriminate|]. apply Z.eqb_neq in E2.
  intros H; inversion H; subst. lia.
Qed.

(* the functor before the first `(` and the text between it and the last `)`, which is shorter
   than the whole *)
Lemma paren_slices t l r : indices_of_parentheses t = POk (Some (l, r)) ->
  exists f a, slice t 0 l = Ok f /\ slice t (l + 1) r = Ok a /\ (length a < length t)%nat.
Proof.
  intros H. apply indices_of_parentheses_bounds in H as [Hlr Hr]. rewrite !slice_ok by lia.
  eexists _, _. split; [reflexivity|]. split; [reflexivity|].
  rewrite firstn_length, skipn_length. lia.
Qed.

Lemma cai_loop_bound rest : forall i prev skip inf idx,
  cai_loop rest i prev skip = (inf, idx) -> inf <> INone -> (idx + 2 <= i + length rest)%nat.
Proof.
  induction rest as [|c1 tl IH]; intros i prev skip inf idx H Hne; cbn [cai_loop] in H.
  - inversion H; subst. now elim Hne.
  - assert (Hstep : forall p sk, cai_loop tl (S i) p sk = (inf, idx) ->
                                 (idx + 2 <= i + length (c1 :: tl))%nat).
    { intros p sk Hr. apply IH in Hr; [simpl; lia|exact Hne]. }
    assert (Hret : forall (x : infix) (c2 : N), (c2 =? 32) = true ->
              c2 = match tl with c :: _ => c | [] => c_hash end ->
              (x, i) = (inf, idx) -> (idx + 2 <= i + length (c1 :: tl))%nat).
    { intros x c2 Hc2 Hdef Hr. inversion Hr; subst idx.
      destruct tl as [|c tl']; [subst c2; discriminate|]. simpl. lia. }
    destruct skip as [[close open]|].
    + destruct (c1 =? close); eauto.
    + set (c2 := match tl with c :: _ => c | [] => c_hash end) in *.
      destruct (c1 =? c_dquote). { destruct (has_char c_dquote tl); eauto. }
      destruct (c1 =? c_lpar). { destruct (has_char c_rpar tl); eauto. }
      destruct (negb (prev =? 32)); [eauto|].
      destruct (c1 =? c_plus). { destruct (c2 =? 32) eqn:E; eauto. }
      destruct (c1 =? c_minus). { destruct (c2 =? 32) eqn:E; eauto. }
      destruct (c1 =? c_star). { destruct (c2 =? 32) eqn:E; eauto. }
      destruct (c1 =? c_slash). { destruct (c2 =? 32) eqn:E; eauto. }
      eauto.
Qed.

Lemma check_arithmetic_infix_bound s inf idx :
  check_arithmetic_infix s = (inf, idx) -> inf <> INone -> (idx + 2 <= length s)%nat.
Proof. unfold check_arithmetic_infix. intros H Hne. now apply cai_loop_bound in H. Qed.

(* what the scan for a comparison infix returns: an operator found at idx has two more
   characters after it *)
Definition ci_post (len : nat) (r : res (infix * nat)) : Prop :=
  exists inf idx, r = Ok (inf, idx) /\ (inf <> INone -> (idx + 3 <= len)%nat).

Lemma ci_loop_ok len rest : forall i prev skip,
  (i + length rest = len)%nat -> (prev = 32 -> (1 <= i)%nat) ->
  ci_post len (ci_loop len rest i prev skip).
Proof.
  assert (Hnone : ci_post len (Ok (INone, O))).
  { exists INone, O. split; [reflexivity|]. intros H; now elim H. }
  induction rest as [|c1 tl IH]; intros i prev skip Hlen Hprev; cbn [ci_loop]; [exact Hnone|].
  simpl in Hlen.
  assert (Hstep : forall p sk, ci_post len (ci_loop len tl (S i) p sk)).
  { intros p sk. apply IH; lia. }
  destruct skip as [[close open]|].
  - destruct (c1 =? close); apply Hstep.
  - destruct (c1 =? c_dquote). { destruct (has_char c_dquote tl); apply Hstep. }
    destruct (c1 =? c_lpar). { destruct (has_char c_rpar tl); apply Hstep. }
    destruct (negb (prev =? 32)) eqn:Ep; [apply Hstep|].
    apply negb_false_iff, N.eqb_eq in Ep. specialize (Hprev Ep).
    destruct (len <? 2)%nat eqn:E2. { apply Nat.ltb_lt in E2. lia. }
    destruct (len - 2 <=? i)%nat eqn:E3; [exact Hnone|].
    apply Nat.leb_gt in E3.
    assert (Hret : forall x, ci_post len (Ok (x, i))).
    { intros x. exists x, i. split; [reflexivity|]. intros _. lia. }
    (* after `<`, `>`, `=`: one or two operator characters, then a blank *)
    assert (Hop : forall x y (c2 c3 : N), ci_post len
              (if c2 =? c_eq then if c3 =? 32 then Ok (x, i) else ci_loop len tl (S i) c1 None
               else if c2 =? 32 then Ok (y, i) else ci_loop len tl (S i) c1 None)).
    { intros x y c2 c3. destruct (c2 =? c_eq); [destruct (c3 =? 32)|destruct (c2 =? 32)];
        try apply Hret; apply Hstep. }
    destruct (c1 =? c_lt); [apply Hop|]. destruct (c1 =? c_gt); [apply Hop|].
    destruct (c1 =? c_eq); [apply Hop|]. apply Hstep.
Qed.

Lemma check_infix_ok s :
  exists inf idx, check_infix s = Ok (inf, idx) /\ (inf <> INone -> (idx + 3 <= length s)%nat).
Proof. unfold check_infix. apply ci_loop_ok; [lia|]. intros H; discriminate. Qed.

Section BodiesTotal.
  Variable rec_term : str -> res (presult term).
  Variable rec_args : str -> res (presult (list term)).
  Variable n : nat.
  Hypothesis Hterm : forall s, (length s < n)%nat -> is_ok (rec_term s).
  Hypothesis Hargs : forall s, (length s < n)%nat -> is_ok (rec_args s).

  Lemma get_left_and_right_ok chrs index size :
    (1 <= size)%nat -> (index + size <= length chrs)%nat -> (length chrs <= n)%nat ->
    is_ok (get_left_and_right rec_term chrs index size).
  Proof.
    intros Hs Hi Hn. unfold get_left_and_right.
    rewrite slice_ok by lia. cbn [bind].
    rewrite slice_ok by lia. cbn [bind].
    apply is_ok_pbind. { apply Hterm. rewrite firstn_length, skipn_length. lia. }
    intros t1 _. apply is_ok_pbind. { apply Hterm. rewrite firstn_length, skipn_length. lia. }
    intros t2 _. exact I.
  Qed.

  Definition pll_inv (args : str) (ind : nat) (st : pll_state) : Prop :=
    (ind < pll_end st)%nat /\ (pll_end st <= length args)%nat /\ is_list (pll_list st) = true.

  Lemma pll_elem_ok args a b sl : (length args < n)%nat -> slice args a b = Ok sl ->
    is_ok (rec_term (trim sl)).
  Proof.
    intros Hn Hs. apply Hterm. apply slice_length in Hs.
    pose proof (trim_length sl). lia.
  Qed.

  (* what a step returns: the scan position stays below the end index, the list stays a list *)
  Definition pll_post (args : str) (ind : nat) (r : res (presult pll_state)) : Prop :=
    is_ok r /\
    forall st', r = Ok (POk st') ->
      (ind <= pll_end st')%nat /\ (pll_end st' <= length args)%nat /\ is_list (pll_list st') = true.

  Lemma pll_step_ok args ind st :
    (length args < n)%nat -> pll_inv args ind st -> pll_post args ind (pll_step rec_term args ind st).
  Proof.
    intros Hn (Hi & He & Hl). destruct st as [list end_index vbar oq nq rd sd]. simpl in *.
    assert (Hind : (ind < length args)%nat) by lia.
    (* the three outcomes: same list and end index; a new front element, the end index moves to
       ind; an error *)
    assert (Hsame : forall vb oq' nq' rd' sd',
              pll_post args ind (pok (mkPll list end_index vb oq' nq' rd' sd'))).
    { intros vb oq' nq' rd' sd'. split; [exact I|]. intros st' H. inversion H; subst; simpl.
      repeat split; try lia; exact Hl. }
    assert (Hlink : forall t b vb oq' nq' rd' sd',
              pll_post args ind (do l <- link_front t b list; pok (mkPll l ind vb oq' nq' rd' sd'))).
    { intros t b vb oq' nq' rd' sd'. destruct (link_front_list t b list Hl) as (l' & -> & Hl').
      split; [exact I|]. intros st' H. inversion H; subst; simpl. repeat split; try lia; exact Hl'. }
    assert (Herr : pll_post args ind perr) by (split; [exact I|intros st' H; discriminate]).
    rewrite !equal_escape_ee by exact Hind. cbn [bind].
    destruct oq. { destruct (ee args ind c_dquote); apply Hsame. }
    destruct (ee args ind c_rbr); [apply Hsame|]. destruct (ee args ind c_lbr); [apply Hsame|].
    destruct (ee args ind c_rpar); [apply Hsame|]. destruct (ee args ind c_lpar); [apply Hsame|].
    destruct ((rd =? 0)%Z && (sd =? 0)%Z); [|apply Hsame].
    destruct (ee args ind c_dquote); [apply Hsame|].
    destruct (ee args ind c_comma).
    { rewrite slice_ok by lia. cbn [bind].
      pose proof (pll_elem_ok args _ _ _ Hn (slice_ok args (ind + 1) end_index ltac:(lia) ltac:(lia))) as Ht.
      destruct (trim _) as [|c0 r0] eqn:Et; [exact Herr|]. rewrite <- Et in *.
      assert (Hq : is_ok (check_quotes (trim (firstn (end_index - (ind + 1)) (skipn (ind + 1) args))) nq)).
      { apply check_quotes_ok. intros _. rewrite Et. discriminate. }
      destruct (check_quotes _ nq) as [[|]| |]; try contradiction; cbn [bind]; [exact Herr|].
      destruct (rec_term _) as [[t|]| |]; try contradiction; cbn [pbind]; [apply Hlink|exact Herr]. }
    destruct (ee args ind c_bar); [|apply Hsame].
    destruct vbar; [exact Herr|].
    rewrite slice_ok by lia. cbn [bind].
    destruct (trim _) as [|c0 r0] eqn:Et; [exact Herr|]. rewrite <- Et.
    destruct (if str_eqb _ _ then _ else _) as [var|]; [apply Hlink|exact Herr].
  Qed.

  Lemma pll_final_ok args st :
    (length args < n)%nat -> (pll_end st <= length args)%nat -> is_list (pll_list st) = true ->
    is_ok (pll_final rec_term args st).
  Proof.
    intros Hn He Hl. unfold pll_final.
    pose proof (pll_elem_ok args _ _ _ Hn (slice_ok args 0 (pll_end st) ltac:(lia) He)) as Ht.
    rewrite slice_ok by lia. cbn [bind].
    destruct (trim _) as [|c0 r0] eqn:Et; [exact I|]. rewrite <- Et in *.
    apply is_ok_bind. { apply check_quotes_ok. intros _. rewrite Et. discriminate. }
    intros cq _. destruct cq; [exact I|].
    apply is_ok_pbind; [exact Ht|].
    intros t _. destruct (link_front_list t false _ Hl) as (l' & -> & _). exact I.
  Qed.

  Lemma pll_loop_ok args : forall ind st,
    (length args < n)%nat -> pll_inv args ind st -> is_ok (pll_loop rec_term args ind st).
  Proof.
    induction ind as [|i IH]; intros st Hn Hinv.
    - cbn [pll_loop]. destruct (pll_step_ok args 0 st Hn Hinv) as [Hok Hst].
      apply is_ok_pbind; [exact Hok|]. intros st' E. apply Hst in E as (_ & He & Hl).
      now apply pll_final_ok.
    - cbn [pll_loop]. destruct (pll_step_ok args (S i) st Hn Hinv) as [Hok Hst].
      apply is_ok_pbind; [exact Hok|]. intros st' E. apply Hst in E as (Hi & He & Hl).
      apply IH; [exact Hn|]. repeat split; try lia; exact Hl.
  Qed.

  Lemma parse_linked_list_body_ok s :
    (length s <= n)%nat -> is_ok (parse_linked_list_body rec_term s).
  Proof.
    intros Hn. unfold parse_linked_list_body.
    pose proof (trim_length s) as Ht. set (t := trim s) in *.
    destruct (length t <? 2)%nat eqn:E2; [exact I|]. apply Nat.ltb_ge in E2.
    destruct t as [|first r] eqn:Et; [simpl in E2; lia|]. rewrite <- Et in *.
    destruct (negb (first =? c_lbr)); [exact I|].
    destruct (negb (last t 0 =? c_rbr)); [exact I|].
    destruct (length t =? 2)%nat eqn:E3; [exact I|]. apply Nat.eqb_neq in E3.
    rewrite slice_ok by lia. cbn [bind].
    set (args := firstn (length t - 1 - 1) (skipn 1 t)).
    assert (Hla : length args = (length t - 2)%nat).
    { unfold args. rewrite firstn_length, skipn_length. lia. }
    destruct (length args <? 1)%nat eqn:E4. { apply Nat.ltb_lt in E4. lia. }
    apply pll_loop_ok; [lia|]. unfold pll_inv; simpl. repeat split; lia.
  Qed.

  Lemma parse_functor_terms_ok functor terms :
    (length terms < n)%nat -> is_ok (parse_functor_terms rec_args functor terms).
  Proof.
    intros Hn. unfold parse_functor_terms. destruct terms as [|c r] eqn:E; [exact I|].
    rewrite <- E in *. apply is_ok_pbind; [now apply Hargs|]. intros; exact I.
  Qed.

  Lemma parse_complex_body_ok s : (length s <= n)%nat -> is_ok (parse_complex_body rec_args s).
  Proof.
    intros Hn. unfold parse_complex_body.
    pose proof (trim_length s) as Ht. set (t := trim s) in *.
    destruct (validate_complex t) eqn:Ev; [exact I|].
    destruct (indices_of_parentheses t) as [[[l r]|]|] eqn:Ei; [| |exact I].
    - destruct (paren_slices t l r Ei) as (f & a & -> & -> & Ha). cbn [bind].
      apply parse_functor_terms_ok. lia.
    - apply parse_functor_terms_ok. simpl.
      destruct t; [discriminate Ev|]. simpl in Ht. lia.
  Qed.

  Lemma parse_function_body_ok s : (length s <= n)%nat -> is_ok (parse_function_body rec_args s).
  Proof.
    intros Hn. unfold parse_function_body.
    pose proof (trim_length s) as Ht. set (t := trim s) in *.
    destruct (validate_complex t) eqn:Ev; [exact I|].
    destruct (indices_of_parentheses t) as [[[l r]|]|] eqn:Ei; [| exact I|exact I].
    destruct (paren_slices t l r Ei) as (f & ts & -> & -> & Hts). cbn [bind].
    destruct ts as [|c0 r0] eqn:E; [exact I|]. rewrite <- E in *.
    apply is_ok_pbind; [apply Hargs; lia|]. intros; exact I.
  Qed.

  Lemma make_term_ok s : (length s <= n)%nat -> is_ok (make_term rec_term rec_args s).
  Proof.
    intros Hn. unfold make_term.
    pose proof (trim_length s) as Ht. set (t := trim s) in *.
    assert (Htn : (length t <= n)%nat) by lia.
    destruct (classify_term t) as [[hd hnd] hp].
    destruct t as [|first r] eqn:Et; [exact I|]. rewrite <- Et in *.
    destruct (first =? c_dollar).
    { destruct (str_eqb t (s2l "$_")); [exact I|]. destruct (make_logic_var t); exact I. }
    assert (Hnum : is_ok (if hd && negb hnd
                          then if hp then match parse_f64 t with Some f => pok (TFloat f) | None => perr end
                               else match parse_i64 t with Some z => pok (TInt z) | None => perr end
                          else pok (TAtom t))).
    { destruct (hd && negb hnd); [|exact I]. destruct hp.
      - destruct (parse_f64 t); exact I.
      - destruct (parse_i64 t); exact I. }
    cbv zeta.
    destruct (2 <=? length t)%nat eqn:E2; [|exact Hnum]. apply Nat.leb_le in E2.
    destruct (first =? c_dquote).
    { destruct (last t 0 =? c_dquote); [|exact I].
      rewrite slice_ok by lia. cbn [bind].
      destruct (firstn _ _); exact I. }
    destruct ((first =? c_lbr) && (last t 0 =? c_rbr)).
    { now apply parse_linked_list_body_ok. }
    destruct (negb (first =? c_lpar) && (last t 0 =? c_rpar)); [|exact Hnum].
    repeat match goal with
           | |- context [if str_prefix ?p t then _ else _] => destruct (str_prefix p t)
           end; try now apply parse_function_body_ok.
    now apply parse_complex_body_ok.
  Qed.

  Definition pa_inv (st : pa_state) : Prop := pa_nq st <> 0 -> In c_dquote (pa_arg st).

  Lemma pa_make_ok st : (length (pa_arg st) <= n)%nat -> pa_inv st ->
    is_ok (pa_make rec_term rec_args st).
  Proof.
    intros Hn Hinv. unfold pa_make.
    apply is_ok_bind.
    { apply check_quotes_ok. intros H2.
      assert (Hin : In c_dquote (trim (pa_arg st))).
      { apply trim_keeps; [|reflexivity]. apply Hinv. rewrite H2. discriminate. }
      destruct (trim (pa_arg st)); [destruct Hin|discriminate]. }
    intros cq _. destruct cq; [exact I|].
    apply make_term_ok. pose proof (trim_length (pa_arg st)). lia.
  Qed.

  (* what the loop returns: the argument text stays short, the quote count stays witnessed *)
  Definition pa_post (r : res (presult pa_state)) : Prop :=
    is_ok r /\ forall st', r = Ok (POk st') -> (length (pa_arg st') <= n)%nat /\ pa_inv st'.

  (* by induction on a bound m of the length of rest, not on rest: after a backslash the loop
     continues two characters further *)
  Lemma pa_loop_ok len : forall m rest i st,
    (length rest <= m)%nat -> (i + length rest = len)%nat ->
    (length (pa_arg st) + length rest <= n)%nat -> pa_inv st ->
    pa_post (pa_loop rec_term rec_args len rest i st).
  Proof.
    induction m as [|m IH]; intros rest i st Hm Hlen Hn Hinv;
      (destruct rest as [|ch tl];
       [split; [exact I|]; intros st' H; inversion H; subst; simpl in Hn; split; [lia|exact Hinv]|]);
      [simpl in Hm; lia|].
    simpl in Hm, Hlen, Hn. cbn [pa_loop].
    (* the steps that append ch to the argument: the quote count changes only if ch is a double quote *)
    assert (Hstep : forall st1, pa_arg st1 = pa_arg st ++ [ch] ->
              pa_nq st1 = pa_nq st \/ (ch =? c_dquote) = true ->
              pa_post (pa_loop rec_term rec_args len tl (S i) st1)).
    { intros st1 Ea Eq. apply IH; try lia.
      - rewrite Ea, app_length. simpl. lia.
      - unfold pa_inv. rewrite Ea. intros Hq. apply in_or_app.
        destruct Eq as [Eq|Eq]; [left; apply Hinv; now rewrite <- Eq|].
        right. left. now apply N.eqb_eq. }
    destruct (pa_oq st). { destruct (ch =? c_dquote) eqn:Eq; apply Hstep; auto. }
    destruct (ch =? c_lbr); [apply Hstep; auto|]. destruct (ch =? c_rbr); [apply Hstep; auto|].
    destruct (ch =? c_lpar); [apply Hstep; auto|]. destruct (ch =? c_rpar); [apply Hstep; auto|].
    destruct ((pa_rd st =? 0)%Z && (pa_sd st =? 0)%Z); [|apply Hstep; auto].
    destruct (ch =? c_comma).
    { assert (Hmk : is_ok (pa_make rec_term rec_args st)) by (apply pa_make_ok; [lia|exact Hinv]).
      destruct (pa_make rec_term rec_args st) as [[t|]| |]; try contradiction; cbn [pbind].
      - apply IH; try lia; [simpl; lia|]. unfold pa_inv; simpl. intros H; now elim H.
      - split; [exact I|]. intros st' H; discriminate. }
    destruct (ch =? c_bslash).
    { destruct (i + 1 <? len)%nat eqn:E1; [|apply Hstep; auto].
      apply Nat.ltb_lt in E1. destruct tl as [|c2 tl2]; [simpl in Hlen; lia|].
      simpl in Hm, Hlen, Hn. apply IH; try lia.
      - unfold pa_push; simpl. rewrite app_length; simpl. lia.
      - unfold pa_inv, pa_push; simpl. intros Hq. apply in_or_app. left. auto. }
    destruct (ch =? c_dquote) eqn:Eq; apply Hstep; auto.
  Qed.

  Lemma parse_arguments_body_ok s :
    (length s <= n)%nat -> is_ok (parse_arguments_body rec_term rec_args s).
  Proof.
    intros Hn. unfold parse_arguments_body.
    pose proof (trim_length s) as Ht. set (t := trim s) in *.
    destruct t as [|first r] eqn:Et; [exact I|]. rewrite <- Et in *.
    destruct (first =? c_comma) eqn:Ef; [exact I|].
    apply is_ok_bind.
    { destruct (last t 0 =? c_comma) eqn:El; [|exact I].
      destruct (length t <? 2)%nat eqn:E2.
      - (* a single character that is a comma would be `first` *)
        apply Nat.ltb_lt in E2. rewrite Et in E2, El. destruct r; [|simpl in E2; lia].
        simpl in El. rewrite El in Ef. discriminate.
      - apply Nat.ltb_ge in E2.
        destruct (nth_error t (length t - 2)) eqn:En; [exact I|].
        apply nth_error_None in En. lia. }
    intros bad _. destruct bad; [exact I|].
    destruct (pa_loop_ok (length t) (length t) t 0 (mkPa false 0 0%Z 0%Z [] [] 0)) as [Hok Hst];
      try (simpl; lia).
    { unfold pa_inv; simpl. intros H; now elim H. }
    apply is_ok_pbind; [exact Hok|]. intros st E. apply Hst in E as [Hl Hi].
    apply is_ok_pbind.
    { destruct (pa_start st <? length t)%nat; [|exact I].
      apply is_ok_pbind; [now apply pa_make_ok|]. intros; exact I. }
    intros terms _. destruct (negb (pa_rd st =? 0)%Z); [exact I|].
    destruct (negb (pa_sd st =? 0)%Z); exact I.
  Qed.

  Lemma parse_term_body_ok s :
    (length s <= n)%nat -> is_ok (parse_term_body rec_term rec_args s).
  Proof.
    intros Hn. unfold parse_term_body.
    pose proof (trim_length s) as Ht. set (t := trim s) in *.
    destruct (check_arithmetic_infix t) as [inf idx] eqn:Ec.
    destruct (infix_fn_name inf) as [name|] eqn:En.
    - assert (Hne : inf <> INone) by (intros ->; discriminate).
      pose proof (check_arithmetic_infix_bound t inf idx Ec Hne).
      apply is_ok_pbind; [apply get_left_and_right_ok; lia|]. intros; exact I.
    - apply make_term_ok.
      destruct t as [|c0 [|c1 [|c2 r]]]; try (simpl in *; lia).
      destruct (c0 =? c_bslash); simpl in *; lia.
  Qed.
End BodiesTotal.

Lemma parse_ok_below : forall n fuel, (n <= fuel)%nat ->
  (forall s, (length s < n)%nat -> is_ok (parse_term fuel s)) /\
  (forall s, (length s < n)%nat -> is_ok (parse_arguments fuel s)).
Proof.
  induction n as [|n IH]; intros fuel Hf.
  - split; intros s H; lia.
  - destruct fuel as [|f]; [lia|]. destruct (IH f ltac:(lia)) as [Ht Ha].
    split; intros s Hs; cbn [parse_term parse_arguments].
    + apply (parse_term_body_ok _ _ n Ht Ha). lia.
    + apply (parse_arguments_body_ok _ _ n Ht Ha). lia.
Qed.

Lemma parse_complex_ok fuel s : (length s <= fuel)%nat -> is_ok (parse_complex fuel s).
Proof.
  intros H. apply (parse_complex_body_ok _ (length s)); [|lia].
  apply (parse_ok_below (length s) fuel H).
Qed.

(* parse_query: what parse_complex returns is a complex term headed by an atom, so that
   make_complex / make_query do not panic *)
Lemma parse_functor_terms_shape ra functor terms q :
  parse_functor_terms ra functor terms = Ok (POk q) -> exists f ts, q = TComplex (TAtom f :: ts).
Proof.
  unfold parse_functor_terms. destruct terms as [|c r].
  - intros H; inversion H; eauto.
  - destruct (ra (c :: r)) as [[ts|]| |]; cbn [pbind]; intros H; inversion H; eauto.
Qed.

Lemma parse_complex_body_shape ra s q :
  parse_complex_body ra s = Ok (POk q) -> exists f ts, q = TComplex (TAtom f :: ts).
Proof.
  unfold parse_complex_body. destruct (validate_complex (trim s)); [discriminate|].
  destruct (indices_of_parentheses (trim s)) as [[[l r]|]|]; [| |discriminate].
  - destruct (slice (trim s) 0 l); cbn [bind]; try discriminate.
    destruct (slice (trim s) (l + 1) r); cbn [bind]; try discriminate.
    apply parse_functor_terms_shape.
  - apply parse_functor_terms_shape.
Qed.

Lemma make_query_ok f ts : is_ok (make_query (TAtom f :: ts)).
Proof.
  unfold make_query. cbn [rename_terms rename_term].
  destruct (rename_terms ts ([], 0)) as [r [vm ctr]]. exact I.
Qed.

Lemma parse_query_ok fuel s : (length s <= fuel)%nat -> is_ok (parse_query fuel s).
Proof.
  intros H. unfold parse_query.
  match goal with |- is_ok (pbind (parse_complex fuel ?p) _) => set (p2 := p) end.
  assert (Hp : (length p2 <= length s)%nat).
  { unfold p2. destruct s as [|c r]; [lia|]. destruct (last (c :: r) 0 =? c_period); [|lia].
    assert (Hne : c :: r <> []) by discriminate.
    pose proof (app_removelast_last 0 Hne) as E. apply (f_equal (@length N)) in E.
    rewrite app_length in E. cbn [length] in E |- *. lia. }
  apply is_ok_pbind; [apply parse_complex_ok; lia|].
  intros q E. apply parse_complex_body_shape in E as (f & ts & ->).
  apply is_ok_bind; [apply make_query_ok|]. intros; exact I.
Qed.

Section SubgoalTotal.
  Variable rec_term : str -> res (presult term).
  Variable rec_args : str -> res (presult (list term)).
  Variable rec_subgoal : str -> res (presult goal).
  Variable n : nat.
  Hypothesis Hterm : forall s, (length s < n)%nat -> is_ok (rec_term s).
  Hypothesis Hargs : forall s, (length s < n)%nat -> is_ok (rec_args s).
  Hypothesis Hsub : forall s, (length s < n)%nat -> is_ok (rec_subgoal s).

  Lemma parse_subgoal_body_ok s :
    (length s <= n)%nat -> is_ok (parse_subgoal_body rec_term rec_args rec_subgoal s).
  Proof.
    intros Hn. unfold parse_subgoal_body.
    pose proof (trim_length s) as Ht. set (t := trim s) in *.
    destruct t as [|c0 r0] eqn:Et; [exact I|]. rewrite <- Et in *.
    destruct (str_eqb t g_bang || str_eqb t g_fail || str_eqb t g_nl); [exact I|].
    destruct (check_infix_ok t) as (inf & idx & -> & Hidx). cbn [bind].
    destruct (negb (infix_eqb inf INone)) eqn:Ei.
    { assert (Hne : inf <> INone) by (intros ->; discriminate).
      specialize (Hidx Hne).
      apply is_ok_pbind; [apply (get_left_and_right_ok _ n Hterm); lia|].
      intros lr _. destruct (infix_goal_name inf); exact I. }
    destruct (indices_of_parentheses t) as [[[l r]|]|] eqn:Ep; [| |exact I].
    - unfold split_complex_term.
      destruct (paren_slices t l r Ep) as (functor & args & -> & -> & Ha). cbn [bind].
      destruct (str_eqb functor g_time || str_eqb functor g_not).
      + unfold parse_operator_goal. apply is_ok_pbind; [apply Hsub; lia|].
        intros sub _. destruct (str_eqb functor g_time); [exact I|].
        destruct (str_eqb functor g_not); exact I.
      + destruct (trim args); [exact I|]. apply is_ok_pbind; [apply Hargs; lia|]. intros; exact I.
    - apply is_ok_pbind; [|intros; exact I].
      apply (parse_functor_terms_ok _ n Hargs). rewrite Et in Ht. simpl in *. lia.
  Qed.
End SubgoalTotal.

Lemma parse_subgoal_ok_below : forall n fuel, (n <= fuel)%nat ->
  forall s, (length s < n)%nat -> is_ok (parse_subgoal fuel s).
Proof.
  induction n as [|n IH]; intros fuel Hf s Hs; [lia|].
  destruct fuel as [|f]; [lia|]. cbn [parse_subgoal].
  destruct (parse_ok_below n f ltac:(lia)) as [Ht Ha].
  apply (parse_subgoal_body_ok _ _ _ n Ht Ha); [|lia].
  intros s' Hs'. apply IH; lia.
Qed.

(* C18, term level: with fuel >= length + 2 every entry point returns a value or an error *)
Theorem parse_term_total : forall s fuel, (parse_fuel s <= fuel)%nat -> value_or_error (parse_term fuel s).
Proof.
  intros s fuel H. unfold parse_fuel in H.
  apply is_ok_value_or_error, (parse_ok_below (S (length s)) fuel); lia.
Qed.
Theorem parse_arguments_total : forall s fuel, (parse_fuel s <= fuel)%nat -> value_or_error (parse_arguments fuel s).
Proof.
  intros s fuel H. unfold parse_fuel in H.
  apply is_ok_value_or_error, (parse_ok_below (S (length s)) fuel); lia.
Qed.
Theorem parse_linked_list_total : forall s fuel, (parse_fuel s <= fuel)%nat -> value_or_error (parse_linked_list fuel s).
Proof.
  intros s fuel H. unfold parse_fuel in H.
  apply is_ok_value_or_error, (parse_linked_list_body_ok _ (length s)); [|lia].
  apply (parse_ok_below (length s) fuel). lia.
Qed.
Theorem parse_complex_total : forall s fuel, (parse_fuel s <= fuel)%nat -> value_or_error (parse_complex fuel s).
Proof. intros s fuel H. unfold parse_fuel in H. apply is_ok_value_or_error, parse_complex_ok. lia. Qed.
Theorem parse_function_total : forall s fuel, (parse_fuel s <= fuel)%nat -> value_or_error (parse_function fuel s).
Proof.
  intros s fuel H. unfold parse_fuel in H.
  apply is_ok_value_or_error, (parse_function_body_ok _ (length s)); [|lia].
  apply (parse_ok_below (length s) fuel). lia.
Qed.
Theorem parse_query_total : forall s fuel, (parse_fuel s <= fuel)%nat -> value_or_error (parse_query fuel s).
Proof. intros s fuel H. unfold parse_fuel in H. apply is_ok_value_or_error, parse_query_ok. lia. Qed.
Theorem parse_subgoal_total : forall s fuel, (parse_fuel s <= fuel)%nat -> value_or_error (parse_subgoal fuel s).
Proof.
  intros s fuel H. unfold parse_fuel in H.
  apply is_ok_value_or_error, (parse_subgoal_ok_below (S (length s)) fuel); lia.
Qed.

Definition is_trimmed (s : str) : Prop :=
  s = [] \/ (is_white (hd 0 s) = false /\ is_white (last s 0) = false).

Lemma trim_start_head s : trim_start s = [] \/ is_white (hd 0 (trim_start s)) = false.
Proof.
  induction s as [|c r IH]; cbn [trim_start]; [now left|].
  destruct (is_white c) eqn:E; [exact IH|]. right. cbn [hd]. exact E.
Qed.

Lemma trim_start_nil_all_white s : trim_start s = [] -> forall c, In c s -> is_white c = true.
Proof.
  induction s as [|x r IH]; cbn [trim_start In]; [intros _ c []|].
  destruct (is_white x) eqn:E; [|discriminate]. intros H c [->|Hin]; auto.
Qed.

Lemma trim_start_suffix s : exists p, s = p ++ trim_start s.
Proof.
  induction s as [|c r [p IH]]; cbn [trim_start]; [exists []; reflexivity|].
  destruct (is_white c).
  - exists (c :: p). cbn [app]. now f_equal.
  - exists []. reflexivity.
Qed.

Lemma trim_start_id s : s = [] \/ is_white (hd 0 s) = false -> trim_start s = s.
Proof. destruct s as [|c r]; cbn [trim_start hd]; [reflexivity|]. intros [H|H]; [discriminate|]. now rewrite H. Qed.

Lemma trim_trimmed s : is_trimmed (trim s).
Proof.
  unfold is_trimmed, trim.
  destruct (trim_start s) as [|h a] eqn:Ea; [left; reflexivity|].
  assert (Hh : is_white h = false).
  { destruct (trim_start_head s) as [E|E]; rewrite Ea in E; [discriminate|exact E]. }
  set (b := trim_start (rev (h :: a))).
  assert (Hb : b <> []).
  { intros Hb. pose proof (trim_start_nil_all_white _ Hb h) as Hw.
    rewrite Hw in Hh; [discriminate|]. apply -> in_rev. now left. }
  right. split.
  - rewrite hd_rev. destruct (trim_start_suffix (rev (h :: a))) as [p Hp]. fold b in Hp.
    rewrite <- (last_app_nonempty p b 0 Hb), <- Hp. rewrite last_rev_cons. exact Hh.
  - rewrite <- hd_rev, rev_involutive.
    destruct (trim_start_head (rev (h :: a))) as [E|E]; fold b in E; [now elim Hb|exact E].
Qed.

Lemma trimmed_trim s : is_trimmed s -> trim s = s.
Proof.
  intros [->|[Hh Hl]]; [reflexivity|]. unfold trim.
  rewrite (trim_start_id s) by (now right).
  rewrite trim_start_id; [apply rev_involutive|].
  right. now rewrite hd_rev.
Qed.

Lemma trim_idem s : trim (trim s) = trim s.
Proof. apply trimmed_trim, trim_trimmed. Qed.

Definition pmap {A B} (f : A -> B) (r : res (presult A)) : res (presult B) :=
  dop a <- r; pok (f a).

(* `pa_scan` follows the quote and bracket tracking of parse_arguments and gives up (None)
   at a comma or a backslash that is outside double quotes and outside ( ) [ ]. *)
Fixpoint pa_scan (rest : str) (oq : bool) (nq : N) (rd sd : Z) : option (bool * N * Z * Z) :=
  match rest with
  | [] => Some (oq, nq, rd, sd)
  | ch :: tl =>
      if oq then
        if ch =? c_dquote then pa_scan tl false (nq + 1) rd sd else pa_scan tl oq nq rd sd
      else if ch =? c_lbr then pa_scan tl oq nq rd (sd + 1)%Z
      else if ch =? c_rbr then pa_scan tl oq nq rd (sd - 1)%Z
      else if ch =? c_lpar then pa_scan tl oq nq (rd + 1)%Z sd
      else if ch =? c_rpar then pa_scan tl oq nq (rd - 1)%Z sd
      else if ((rd =? 0) && (sd =? 0))%Z then
        if ch =? c_comma then None
        else if ch =? c_bslash then None
        else if ch =? c_dquote then pa_scan tl true (nq + 1) rd sd
        else pa_scan tl oq nq rd sd
      else pa_scan tl oq nq rd sd
  end.

(* parse_arguments' loop follows pa_scan across a stretch p on which the scan does not stop *)
Lemma pa_loop_app_plain rt ra len p : forall rest' i st oq nq rd sd,
  pa_scan p (pa_oq st) (pa_nq st) (pa_rd st) (pa_sd st) = Some (oq, nq, rd, sd) ->
  pa_loop rt ra len (p ++ rest') i st =
  pa_loop rt ra len rest' (i + length p)
    (mkPa oq nq rd sd (pa_arg st ++ p) (pa_terms st) (pa_start st)).
Proof.
  induction p as [|ch tl IH]; intros rest' i [oq0 nq0 rd0 sd0 arg T start] oq nq rd sd H;
    cbn [pa_oq pa_nq pa_rd pa_sd pa_arg pa_terms pa_start] in *.
  - inversion H; subst. now rewrite app_nil_r, Nat.add_0_r.
  - cbn [app pa_loop length pa_oq pa_rd pa_sd pa_nq pa_push pa_set_quote pa_set_depth pa_arg
         pa_terms pa_start]. cbn [pa_scan] in H.
    replace (i + S (length tl))%nat with (S i + length tl)%nat by lia.
    replace (arg ++ ch :: tl) with ((arg ++ [ch]) ++ tl) by (now rewrite <- app_assoc).
    assert (step : forall oq1 nq1 rd1 sd1, pa_scan tl oq1 nq1 rd1 sd1 = Some (oq, nq, rd, sd) ->
              pa_loop rt ra len (tl ++ rest') (S i) (mkPa oq1 nq1 rd1 sd1 (arg ++ [ch]) T start) =
              pa_loop rt ra len rest' (S i + length tl) (mkPa oq nq rd sd ((arg ++ [ch]) ++ tl) T start)).
    { intros oq1 nq1 rd1 sd1 H1. exact (IH rest' (S i) (mkPa oq1 nq1 rd1 sd1 (arg ++ [ch]) T start) oq nq rd sd H1). }
    destruct oq0. { destruct (ch =? c_dquote); now apply step. }
    destruct (ch =? c_lbr); [now apply step|]. destruct (ch =? c_rbr); [now apply step|].
    destruct (ch =? c_lpar); [now apply step|]. destruct (ch =? c_rpar); [now apply step|].
    destruct ((rd0 =? 0)%Z && (sd0 =? 0)%Z); [|now apply step].
    destruct (ch =? c_comma); [discriminate|]. destruct (ch =? c_bslash); [discriminate|].
    destruct (ch =? c_dquote); now apply step.
Qed.

Lemma pa_loop_plain rt ra len rest i st oq nq rd sd :
  pa_scan rest (pa_oq st) (pa_nq st) (pa_rd st) (pa_sd st) = Some (oq, nq, rd, sd) ->
  pa_loop rt ra len rest i st =
  pok (mkPa oq nq rd sd (pa_arg st ++ rest) (pa_terms st) (pa_start st)).
Proof.
  intros H. rewrite <- (app_nil_r rest) at 1. now rewrite (pa_loop_app_plain rt ra len rest [] i st _ _ _ _ H).
Qed.

(* quotation marks as check_quotes wants them: none counted, or exactly the two that enclose
   the text *)
Definition quotes_ok (t : str) (nq : N) : bool :=
  (nq =? 0) || ((nq =? 2) && (hd 0 t =? c_dquote) && (last t 0 =? c_dquote)).

Lemma check_quotes_quotes_ok t nq : quotes_ok t nq = true -> check_quotes t nq = Ok false.
Proof.
  unfold quotes_ok, check_quotes. destruct (nq =? 0); [reflexivity|]. simpl.
  destruct (nq =? 2); simpl; [|discriminate]. intros H.
  apply andb_true_iff in H as [H1 H2].
  destruct t as [|f r]; [discriminate H1|]. simpl in H1. rewrite H1. cbn [negb].
  now rewrite H2.
Qed.

(* no arithmetic infix ` + `, ` - `, ` * `, ` / ` found by parse_term's scan *)
Definition no_arith_infix (s : str) : bool :=
  match fst (check_arithmetic_infix (trim s)) with INone => true | _ => false end.

(* side condition of C20 for the argument context *)
Definition args_plain (s : str) : bool :=
  let t := trim s in
  negb (last t 0 =? c_comma) &&
  match pa_scan t false 0 0%Z 0%Z with
  | Some (_, nq, rd, sd) => (rd =? 0)%Z && (sd =? 0)%Z && quotes_ok t nq
  | None => false
  end.

Lemma pa_scan_first_comma tl : pa_scan (c_comma :: tl) false 0 0%Z 0%Z = None.
Proof. reflexivity. Qed.

Lemma pa_scan_first_bslash tl : pa_scan (c_bslash :: tl) false 0 0%Z 0%Z = None.
Proof. reflexivity. Qed.

Lemma parse_term_body_plain rt ra s :
  no_arith_infix s = true ->
  (forall tl, trim s <> c_bslash :: tl) ->
  parse_term_body rt ra s = make_term rt ra (trim s).
Proof.
  intros Hn Hb. unfold parse_term_body. unfold no_arith_infix in Hn.
  destruct (check_arithmetic_infix (trim s)) as [inf idx]. simpl in Hn.
  destruct inf; try discriminate. cbn [infix_fn_name].
  destruct (trim s) as [|c0 [|c1 [|c2 r]]] eqn:Et; try reflexivity.
  destruct (c0 =? c_bslash) eqn:E; [|reflexivity].
  apply N.eqb_eq in E. subst c0. now elim (Hb [c1]).
Qed.

Lemma make_term_trim rt ra s : make_term rt ra (trim s) = make_term rt ra s.
Proof. unfold make_term. now rewrite trim_idem. Qed.

Lemma parse_arguments_body_plain rt ra s :
  args_plain s = true ->
  parse_arguments_body rt ra s = pmap (fun t => [t]) (make_term rt ra (trim s)).
Proof.
  unfold args_plain. intros H. apply andb_true_iff in H as [Hlast H].
  unfold parse_arguments_body. set (t := trim s) in *.
  destruct (pa_scan t false 0 0%Z 0%Z) as [[[[oq nq] rd] sd]|] eqn:Es; [|discriminate].
  apply andb_true_iff in H as [H Hq]. apply andb_true_iff in H as [Hrd Hsd].
  destruct t as [|first r] eqn:Et.
  { (* empty text: both report an error *) unfold make_term. rewrite <- Et.
    unfold t. rewrite trim_idem. fold t. rewrite Et. reflexivity. }
  rewrite <- Et in *.
  destruct (first =? c_comma) eqn:Ef.
  { apply N.eqb_eq in Ef. subst first. rewrite Et in Es. rewrite pa_scan_first_comma in Es. discriminate. }
  apply negb_true_iff in Hlast. rewrite Hlast. cbn [bind].
  rewrite (pa_loop_plain rt ra (length t) t 0 _ oq nq rd sd) by exact Es.
  cbn [pbind pok pa_arg pa_terms pa_start pa_rd pa_sd app].
  assert (Hlen : (0 <? length t)%nat = true).
  { apply Nat.ltb_lt. rewrite Et. simpl. lia. }
  rewrite Hlen. unfold pa_make. cbn [pa_arg pa_nq].
  assert (Htt : trim t = t) by (unfold t; apply trim_idem). rewrite Htt.
  rewrite (check_quotes_quotes_ok t nq Hq). cbn [bind].
  rewrite Hrd, Hsd. cbn [negb].
  unfold pmap. destruct (make_term rt ra t) as [[x|]| |]; reflexivity.
Qed.

(* C20, argument context: with the same fuel, the text as the only argument of
   parse_arguments gives exactly the term parse_term gives for it (or the same failure). *)
Theorem context_independent_args : forall fuel s,
  args_plain s = true -> no_arith_infix s = true ->
  parse_arguments (S fuel) s = pmap (fun t => [t]) (parse_term (S fuel) s).
Proof.
  intros fuel s Ha Hn. cbn [parse_arguments parse_term].
  rewrite parse_arguments_body_plain by exact Ha.
  rewrite parse_term_body_plain; [reflexivity|exact Hn|].
  intros tl E. unfold args_plain in Ha. rewrite E in Ha.
  rewrite pa_scan_first_bslash in Ha. now rewrite andb_false_r in Ha.
Qed.

Fixpoint count_c (c : N) (s : str) : N :=
  match s with
  | [] => 0
  | x :: r => (if x =? c then 1 else 0) + count_c c r
  end.

(* a functor text: not empty, starts with neither white space, `$` nor `(`, no parentheses *)
Definition functor_ok (f : str) : bool :=
  match f with
  | [] => false
  | c :: _ => negb (is_white c) && negb (c =? c_dollar) &&
              (count_c c_lpar f =? 0) && (count_c c_rpar f =? 0)
  end.

Definition parens_balanced (s : str) : bool := count_c c_lpar s =? count_c c_rpar s.

Lemma iop_loop_app a : forall b i lft rgt cl cr,
  iop_loop (a ++ b) i lft rgt cl cr =
  (let '(l1, r1, c1, c2) := iop_loop a i lft rgt cl cr in iop_loop b (i + length a) l1 r1 c1 c2).
Proof.
  induction a as [|ch a IH]; intros b i lft rgt cl cr.
  - simpl. now rewrite Nat.add_0_r.
  - cbn [app iop_loop length].
    replace (i + S (length a))%nat with (S i + length a)%nat by lia.
    destruct (ch =? c_lpar); [apply IH|]. destruct (ch =? c_rpar); apply IH.
Qed.

Lemma iop_loop_no_parens a : forall i lft rgt cl cr,
  count_c c_lpar a = 0 -> count_c c_rpar a = 0 -> iop_loop a i lft rgt cl cr = (lft, rgt, cl, cr).
Proof.
  induction a as [|ch a IH]; intros i lft rgt cl cr H1 H2; [reflexivity|].
  cbn [count_c] in H1, H2. cbn [iop_loop].
  destruct (ch =? c_lpar); [lia|]. destruct (ch =? c_rpar); [lia|].
  apply IH; lia.
Qed.

Lemma tuple4_eq {A B C D} (a a' : A) (b b' : B) (c c' : C) (d d' : D) :
  a = a' -> b = b' -> c = c' -> d = d' -> (a, b, c, d) = (a', b', c', d').
Proof. now intros -> -> -> ->. Qed.

Lemma iop_loop_tail s : forall i lft rgt cl cr,
  (lft <> -1)%Z ->
  iop_loop (s ++ [c_rpar]) i lft rgt cl cr =
  (lft, Z.of_nat (i + length s), cl + count_c c_lpar s, cr + count_c c_rpar s + 1).
Proof.
  induction s as [|ch s IH]; intros i lft rgt cl cr Hl.
  - cbn [app iop_loop]. change (c_rpar =? c_lpar) with false. change (c_rpar =? c_rpar) with true.
    cbv iota. cbn [length count_c]. apply tuple4_eq; lia.
  - cbn [app iop_loop length count_c].
    replace (i + S (length s))%nat with (S i + length s)%nat by lia.
    destruct (ch =? c_lpar) eqn:E1.
    + apply Z.eqb_neq in Hl. rewrite Hl. rewrite IH by (apply Z.eqb_neq; exact Hl).
      assert (E2 : (ch =? c_rpar) = false).
      { apply N.eqb_eq in E1. subst ch. reflexivity. }
      rewrite E2. apply tuple4_eq; lia.
    + destruct (ch =? c_rpar); rewrite IH by exact Hl; apply tuple4_eq; lia.
Qed.

Lemma indices_of_parentheses_call f s :
  count_c c_lpar f = 0 -> count_c c_rpar f = 0 -> parens_balanced s = true ->
  indices_of_parentheses (f ++ c_lpar :: s ++ [c_rpar]) =
  POk (Some (length f, (length f + 1 + length s)%nat)).
Proof.
  intros H1 H2 Hb. unfold indices_of_parentheses.
  rewrite iop_loop_app, iop_loop_no_parens by assumption.
  cbn [iop_loop]. change (c_lpar =? c_lpar) with true. change (-1 =? -1)%Z with true. cbv iota.
  rewrite iop_loop_tail by lia.
  unfold parens_balanced in Hb. apply N.eqb_eq in Hb.
  assert (Hc : (0 + 1 + count_c c_lpar s =? 0 + count_c c_rpar s + 1) = true) by (apply N.eqb_eq; lia).
  rewrite Hc. cbn [negb].
  assert (Hr : (Z.of_nat (S (0 + length f) + length s) <? Z.of_nat (0 + length f))%Z = false)
    by (apply Z.ltb_ge; lia).
  rewrite Hr.
  assert (Hn : (Z.of_nat (0 + length f) =? -1)%Z = false) by (apply Z.eqb_neq; lia).
  rewrite Hn. rewrite !Nat2Z.id. do 3 f_equal. lia.
Qed.

Lemma last_call_text f s : last (f ++ c_lpar :: s ++ [c_rpar]) 0 = c_rpar.
Proof.
  replace (f ++ c_lpar :: s ++ [c_rpar]) with ((f ++ c_lpar :: s) ++ [c_rpar]).
  - apply last_last.
  - now rewrite <- app_assoc.
Qed.

Lemma functor_ok_facts f : functor_ok f = true ->
  exists c r, f = c :: r /\ is_white c = false /\ (c =? c_dollar) = false /\
              count_c c_lpar f = 0 /\ count_c c_rpar f = 0.
Proof.
  unfold functor_ok. destruct f as [|c r]; [discriminate|]. intros H.
  apply andb_true_iff in H as [H H2]. apply andb_true_iff in H as [H H1].
  apply andb_true_iff in H as [Hw Hd]. apply N.eqb_eq in H1, H2.
  apply negb_true_iff in Hw, Hd. exists c, r. auto.
Qed.

Lemma call_text_trimmed f s : functor_ok f = true -> trim (f ++ c_lpar :: s ++ [c_rpar]) = f ++ c_lpar :: s ++ [c_rpar].
Proof.
  intros Hf. apply trimmed_trim. right. split.
  - destruct (functor_ok_facts f Hf) as (c & r & -> & Hw & _). exact Hw.
  - rewrite last_call_text. reflexivity.
Qed.

Lemma slice_prefix (f r : str) : slice (f ++ r) 0 (length f) = Ok f.
Proof.
  rewrite slice_ok; [|lia|rewrite app_length; lia].
  cbn [skipn]. rewrite Nat.sub_0_r, firstn_app, Nat.sub_diag, firstn_all. cbn [firstn]. now rewrite app_nil_r.
Qed.

Lemma slice_middle (f s r : str) (c : N) :
  slice (f ++ c :: s ++ r) (length f + 1) (length f + 1 + length s) = Ok s.
Proof.
  rewrite slice_ok; [|lia|rewrite app_length; simpl; rewrite app_length; lia].
  replace (f ++ c :: s ++ r) with ((f ++ [c]) ++ s ++ r) by (now rewrite <- app_assoc).
  replace (length f + 1)%nat with (length (f ++ [c])) by (rewrite app_length; simpl; lia).
  rewrite skipn_app, skipn_all, Nat.sub_diag. cbn [skipn app].
  replace (length (f ++ [c]) + length s - length (f ++ [c]))%nat with (length s) by lia.
  rewrite firstn_app, Nat.sub_diag, firstn_all. cbn [firstn]. now rewrite app_nil_r.
Qed.

Lemma parse_complex_body_call ra f s :
  functor_ok f = true -> parens_balanced s = true ->
  (length (f ++ c_lpar :: s ++ [c_rpar]) <= 1000)%nat ->
  parse_complex_body ra (f ++ c_lpar :: s ++ [c_rpar]) = parse_functor_terms ra f s.
Proof.
  intros Hf Hb Hlen.
  (* the bound is a unary numeral: every step is dear while it is in the context *)
  assert (Hv : validate_complex (f ++ c_lpar :: s ++ [c_rpar]) = false).
  { apply Nat.ltb_ge in Hlen. unfold validate_complex. rewrite Hlen. clear Hlen.
    destruct (functor_ok_facts f Hf) as (c & r & -> & _ & Hd & H1 & _).
    cbn [app count_c] in H1 |- *. rewrite Hd. destruct (c =? c_lpar); [lia|reflexivity]. }
  clear Hlen. destruct (functor_ok_facts f Hf) as (c & r & Ef & Hw & Hd & H1 & H2).
  unfold parse_complex_body. rewrite call_text_trimmed by exact Hf.
  rewrite Hv. rewrite indices_of_parentheses_call by assumption.
  rewrite slice_prefix. cbn [bind]. rewrite slice_middle. cbn [bind]. reflexivity.
Qed.

(* C20, complex-term context: the text as the only argument of a complex term *)
Theorem context_independent_complex : forall fuel f s,
  functor_ok f = true -> parens_balanced s = true ->
  (length (f ++ c_lpar :: s ++ [c_rpar]) <= 1000)%nat ->
  trim s <> [] -> args_plain s = true -> no_arith_infix s = true ->
  parse_complex (S fuel) (f ++ c_lpar :: s ++ [c_rpar]) =
  pmap (fun t => TComplex [TAtom (trim f); t]) (parse_term (S fuel) s).
Proof.
  intros fuel f s Hf Hb Hlen Hne Ha Hn. unfold parse_complex.
  rewrite parse_complex_body_call by assumption. clear Hlen.
  unfold parse_functor_terms. destruct s as [|c r] eqn:Es; [now elim Hne|]. rewrite <- Es in *.
  rewrite context_independent_args by assumption.
  unfold pmap. destruct (parse_term (S fuel) s) as [[t|]| |]; reflexivity.
Qed.

Lemma parse_query_unfold fuel w : w <> [] ->
  parse_query fuel w =
  (dop q <- parse_complex fuel (if last w 0 =? c_period then removelast w else w);
   match q with
   | TComplex terms => do r <- make_query terms; pok (fst r)
   | _ => Panic
   end).
Proof. destruct w; [intros H; now elim H|reflexivity]. Qed.

Lemma call_text_nonempty f s : f ++ c_lpar :: s ++ [c_rpar] <> [].
Proof. destruct f; discriminate. Qed.

(* C20, query context: parse_query parses the argument by parse_term and then renames the
   variables of the whole query (make_query); with or without the final period *)
Theorem context_independent_query : forall fuel f s,
  functor_ok f = true -> parens_balanced s = true ->
  (length (f ++ c_lpar :: s ++ [c_rpar]) <= 1000)%nat ->
  trim s <> [] -> args_plain s = true -> no_arith_infix s = true ->
  parse_query (S fuel) (f ++ c_lpar :: s ++ [c_rpar]) =
  (dop t <- parse_term (S fuel) s;
   do r <- make_query [TAtom (trim f); t]; pok (fst r)).
Proof.
  intros fuel f s Hf Hb Hlen Hne Ha Hn.
  rewrite parse_query_unfold by apply call_text_nonempty.
  rewrite last_call_text. change (c_rpar =? c_period) with false. cbv iota.
  rewrite context_independent_complex by assumption. clear Hlen.
  unfold pmap. destruct (parse_term (S fuel) s) as [[t|]| |]; reflexivity.
Qed.

Lemma parse_term_trim_eq fuel a b : trim a = trim b -> parse_term fuel a = parse_term fuel b.
Proof.
  intros E. destruct fuel as [|f]; [reflexivity|]. cbn [parse_term].
  unfold parse_term_body. now rewrite E.
Qed.

Lemma trim_start_app s x : trim_start s <> [] -> trim_start (s ++ x) = trim_start s ++ x.
Proof.
  induction s as [|c r IH]; cbn [trim_start app]; [intros H; now elim H|].
  destruct (is_white c); [exact IH|reflexivity].
Qed.

Lemma trim_start_all_white_app s c :
  trim_start s = [] -> is_white c = true -> trim_start (s ++ [c]) = [].
Proof.
  induction s as [|x r IH]; cbn [trim_start app]; intros H Hc; [now rewrite Hc|].
  destruct (is_white x); [now apply IH|discriminate].
Qed.

Lemma trim_app_white s c : is_white c = true -> trim (s ++ [c]) = trim s.
Proof.
  intros Hc. unfold trim. destruct (trim_start s) as [|h a] eqn:E.
  - now rewrite trim_start_all_white_app.
  - rewrite trim_start_app by (rewrite E; discriminate). rewrite E.
    rewrite rev_app_distr. cbn [rev app trim_start]. now rewrite Hc.
Qed.

Lemma trim_cons_white s c : is_white c = true -> trim (c :: s) = trim s.
Proof. intros Hc. unfold trim. cbn [trim_start]. now rewrite Hc. Qed.

Lemma str_eqb_length a b : str_eqb a b = true -> length a = length b.
Proof. intros H. apply str_eqb_eq in H. now subst. Qed.

Lemma str_eqb_length_neq a b : length a <> length b -> str_eqb a b = false.
Proof. intros H. destruct (str_eqb a b) eqn:E; [|reflexivity]. now apply str_eqb_length in E. Qed.

Lemma match_nonempty {A B} (l : list A) (x y : B) :
  l <> [] -> match l with [] => x | _ :: _ => y end = y.
Proof. destruct l; [intros H; now elim H|reflexivity]. Qed.

(* the text `l op r` with one space on each side of the operator *)
Definition infix_text (l op r : str) : str := l ++ 32 :: op ++ 32 :: r.

Definition op_text (i : infix) : str :=
  match i with
  | IUnify => [c_eq] | IEqual => [c_eq; c_eq]
  | ILessThan => [c_lt] | ILessThanOrEqual => [c_lt; c_eq]
  | IGreaterThan => [c_gt] | IGreaterThanOrEqual => [c_gt; c_eq]
  | _ => []
  end.

Lemma infix_text_left l op r : infix_text l op r = (l ++ [32]) ++ op ++ 32 :: r.
Proof. unfold infix_text. now rewrite <- app_assoc. Qed.

Lemma firstn_infix_text l op r : firstn (length l + 1) (infix_text l op r) = l ++ [32].
Proof.
  rewrite infix_text_left. change (length l + 1)%nat with (length l + length [32%N])%nat.
  rewrite <- app_length, <- (Nat.add_0_r (length (l ++ [32]))), firstn_app_2. apply app_nil_r.
Qed.

Lemma skipn_infix_text l op r :
  skipn (length l + 1 + 2) (infix_text l op r) = skipn 2 (op ++ 32 :: r).
Proof.
  rewrite infix_text_left. change (length l + 1)%nat with (length l + length [32%N])%nat.
  rewrite <- app_length, skipn_app, skipn_all2 by lia. now rewrite Nat.add_comm, Nat.add_sub.
Qed.

(* C20, infix context: when the infix scan finds the operator where it is written, both
   operands are what parse_term makes of their texts *)
Theorem context_independent_infix : forall fuel inf name l r,
  infix_goal_name inf = Some name ->
  is_white (hd 32 l) = false -> is_white (last r 32) = false ->
  check_infix (infix_text l (op_text inf) r) = Ok (inf, (length l + 1)%nat) ->
  parse_subgoal (S fuel) (infix_text l (op_text inf) r) =
  (dop t1 <- parse_term fuel l; dop t2 <- parse_term fuel r; pok (make_goal name [t1; t2])).
Proof.
  intros fuel inf name l r Hname Hl Hr Hci.
  set (w := infix_text l (op_text inf) r) in *.
  assert (Hop : op_text inf <> [] /\ (length (op_text inf) <= 2)%nat).
  { destruct inf; try discriminate Hname; simpl; split; try discriminate; lia. }
  assert (Hlne : l <> []) by (intros ->; discriminate Hl).
  assert (Hrne : r <> []) by (intros ->; discriminate Hr).
  assert (Hw : trim w = w).
  { apply trimmed_trim. right. split.
    - unfold w, infix_text. destruct l as [|c l']; [now elim Hlne|]. exact Hl.
    - unfold w, infix_text.
      replace (l ++ 32 :: op_text inf ++ 32 :: r) with ((l ++ 32 :: op_text inf ++ [32]) ++ r).
      + rewrite last_app_nonempty by exact Hrne.
        now rewrite (last_default r 0 32 Hrne).
      + rewrite <- app_assoc. cbn [app]. rewrite <- app_assoc. reflexivity. }
  assert (Hlen : (5 <= length w /\ length l + 1 + 2 <= length w)%nat).
  { unfold w, infix_text. rewrite app_length. cbn [length]. rewrite app_length. cbn [length].
    destruct l; [now elim Hlne|]. destruct r; [now elim Hrne|].
    destruct (op_text inf); [now elim (proj1 Hop)|]. simpl. lia. }
  destruct Hlen as [Hlen Hwl].
  assert (Hwne : w <> []) by (intros E; rewrite E in Hlen; simpl in Hlen; lia).
  (* w is longer than `!`, `fail`, `nl` *)
  assert (Hsp : str_eqb w g_bang || str_eqb w g_fail || str_eqb w g_nl = false).
  { rewrite !str_eqb_length_neq by (simpl; lia). reflexivity. }
  assert (Hinf : negb (infix_eqb inf INone) = true) by (destruct inf; try discriminate Hname; reflexivity).
  assert (E1 : firstn (length l + 1) w = l ++ [32]) by apply firstn_infix_text.
  assert (E2 : skipn (length l + 1 + 2) w = skipn 2 (op_text inf ++ 32 :: r)) by apply skipn_infix_text.
  assert (Harg2 : trim (skipn 2 (op_text inf ++ 32 :: r)) = trim r).
  { destruct inf; try discriminate Hname; cbn [op_text app skipn];
      try reflexivity; apply trim_cons_white; reflexivity. }
  cbn [parse_subgoal]. unfold parse_subgoal_body. rewrite Hw.
  rewrite (match_nonempty w) by exact Hwne.
  rewrite Hsp, Hci. cbn [bind]. rewrite Hinf. unfold get_left_and_right.
  rewrite slice_ok by lia. cbn [bind]. rewrite slice_ok by lia. cbn [bind].
  cbn [skipn]. rewrite Nat.sub_0_r, E1.
  rewrite (parse_term_trim_eq fuel (l ++ [32]) l) by (apply trim_app_white; reflexivity).
  rewrite firstn_all2 by (rewrite skipn_length; lia). rewrite E2.
  rewrite (parse_term_trim_eq fuel _ r Harg2).
  rewrite Hname.
  destruct (parse_term fuel l) as [[t1|]| |]; cbn [pbind]; try reflexivity.
  destruct (parse_term fuel r) as [[t2|]| |]; reflexivity.
Qed.

(* the backward scan of parse_linked_list over a text without a top-level `,` or `|`
   (outside double quotes and ( ) [ ], not escaped by a backslash): final quote count *)
Definition pll_scan_step (args : str) (ind : nat) (oq : bool) (nq : N) (rd sd : Z)
  : option (bool * N * Z * Z) :=
  if oq then
    if ee args ind c_dquote then Some (false, nq + 1, rd, sd) else Some (oq, nq, rd, sd)
  else if ee args ind c_rbr then Some (oq, nq, rd, (sd + 1)%Z)
  else if ee args ind c_lbr then Some (oq, nq, rd, (sd - 1)%Z)
  else if ee args ind c_rpar then Some (oq, nq, (rd + 1)%Z, sd)
  else if ee args ind c_lpar then Some (oq, nq, (rd - 1)%Z, sd)
  else if ((rd =? 0) && (sd =? 0))%Z then
    if ee args ind c_dquote then Some (true, nq + 1, rd, sd)
    else if ee args ind c_comma then None
    else if ee args ind c_bar then None
    else Some (oq, nq, rd, sd)
  else Some (oq, nq, rd, sd).

Fixpoint pll_scan (args : str) (ind : nat) (oq : bool) (nq : N) (rd sd : Z) : option N :=
  match pll_scan_step args ind oq nq rd sd with
  | None => None
  | Some (oq', nq', rd', sd') =>
      match ind with
      | O => Some nq'
      | S i => pll_scan args i oq' nq' rd' sd'
      end
  end.

(* where the scan step has a result, the parser's step is that result; None: the step stands at
   a top-level comma or bar, where the parser cuts an element off, and nothing is claimed *)
Lemma pll_step_scan rt args ind list e vbar oq nq rd sd : (ind < length args)%nat ->
  match pll_scan_step args ind oq nq rd sd with
  | Some (oq', nq', rd', sd') =>
      pll_step rt args ind (mkPll list e vbar oq nq rd sd) = pok (mkPll list e vbar oq' nq' rd' sd')
  | None => True
  end.
Proof.
  intros Hi. unfold pll_scan_step, pll_step. rewrite !equal_escape_ee by exact Hi. cbn [bind].
  destruct oq. { destruct (ee args ind c_dquote); reflexivity. }
  destruct (ee args ind c_rbr); [reflexivity|]. destruct (ee args ind c_lbr); [reflexivity|].
  destruct (ee args ind c_rpar); [reflexivity|]. destruct (ee args ind c_lpar); [reflexivity|].
  destruct ((rd =? 0)%Z && (sd =? 0)%Z); [|reflexivity].
  destruct (ee args ind c_dquote); [reflexivity|].
  destruct (ee args ind c_comma); [exact I|]. destruct (ee args ind c_bar); [exact I|reflexivity].
Qed.

Lemma pll_step_plain rt args ind list e vbar oq nq rd sd oq' nq' rd' sd' :
  (ind < length args)%nat ->
  pll_scan_step args ind oq nq rd sd = Some (oq', nq', rd', sd') ->
  pll_step rt args ind (mkPll list e vbar oq nq rd sd) = pok (mkPll list e vbar oq' nq' rd' sd').
Proof.
  intros Hi H. pose proof (pll_step_scan rt args ind list e vbar oq nq rd sd Hi) as P.
  now rewrite H in P.
Qed.

Lemma pll_loop_plain rt args : forall ind list e vbar oq nq rd sd nqf,
  (ind < length args)%nat ->
  pll_scan args ind oq nq rd sd = Some nqf ->
  exists oqf rdf sdf,
    pll_loop rt args ind (mkPll list e vbar oq nq rd sd) =
    pll_final rt args (mkPll list e vbar oqf nqf rdf sdf).
Proof.
  induction ind as [|i IH]; intros list e vbar oq nq rd sd nqf Hi H; cbn [pll_scan] in H;
    destruct (pll_scan_step args _ oq nq rd sd) as [[[[oq' nq'] rd'] sd']|] eqn:Es; try discriminate.
  - inversion H; subst. exists oq', rd', sd'. cbn [pll_loop].
    rewrite (pll_step_plain rt args 0 list e vbar oq nq rd sd oq' nqf rd' sd' Hi Es). reflexivity.
  - cbn [pll_loop].
    rewrite (pll_step_plain rt args (S i) list e vbar oq nq rd sd oq' nq' rd' sd' Hi Es).
    cbn [pbind pok]. apply IH; [lia|exact H].
Qed.

Definition list_plain (s : str) : bool :=
  match pll_scan s (length s - 1) false 0 0%Z 0%Z with
  | Some nq => quotes_ok (trim s) nq
  | None => false
  end.

Lemma list_text_trimmed s : trim (c_lbr :: s ++ [c_rbr]) = c_lbr :: s ++ [c_rbr].
Proof.
  apply trimmed_trim. right. split; [reflexivity|].
  change (c_lbr :: s ++ [c_rbr]) with ((c_lbr :: s) ++ [c_rbr]). now rewrite last_last.
Qed.

(* the text `[body]` reaches the backward loop, which starts at the last character of body *)
Lemma pll_body_unfold rt body : body <> [] ->
  parse_linked_list_body rt (c_lbr :: body ++ [c_rbr]) =
  pll_loop rt body (length body - 1) (mkPll empty_list (length body) false false 0 0%Z 0%Z).
Proof.
  intros Hne. unfold parse_linked_list_body. rewrite list_text_trimmed.
  replace (length (c_lbr :: body ++ [c_rbr])) with (S (S (length body)))
    by (cbn [length]; rewrite app_length; cbn [length]; lia).
  change (last (c_lbr :: body ++ [c_rbr]) 0) with (last ((c_lbr :: body) ++ [c_rbr]) 0).
  rewrite last_last.
  rewrite (slice_middle [] body [c_rbr] c_lbr
           : slice (c_lbr :: body ++ [c_rbr]) 1 (S (S (length body)) - 1) = Ok body).
  destruct body; [now elim Hne|reflexivity].
Qed.

(* C20, list context: the text as the only element of a list *)
Theorem context_independent_list : forall fuel s,
  s <> [] -> list_plain s = true ->
  parse_linked_list (S fuel) (c_lbr :: s ++ [c_rbr]) =
  pmap (fun t => TList t empty_list 1 false) (parse_term (S fuel) s).
Proof.
  intros fuel s Hne Hp. unfold parse_linked_list. rewrite pll_body_unfold by exact Hne.
  assert (Hs : (1 <= length s)%nat) by (destruct s; [now elim Hne|simpl; lia]).
  unfold list_plain in Hp.
  destruct (pll_scan s (length s - 1) false 0 0%Z 0%Z) as [nqf|] eqn:Es; [|discriminate].
  destruct (pll_loop_plain (parse_term (S fuel)) s (length s - 1) empty_list (length s) false
              false 0 0%Z 0%Z nqf ltac:(lia) Es) as (oqf & rdf & sdf & ->).
  unfold pll_final. cbn [pll_end pll_nq pll_list].
  rewrite slice_ok by lia. cbn [bind skipn]. rewrite Nat.sub_0_r, firstn_all.
  unfold pmap.
  destruct (trim s) as [|c0 r0] eqn:Et.
  { (* only white space between the brackets: an error on both sides *)
    cbn [parse_term]. unfold parse_term_body. rewrite Et. reflexivity. }
  rewrite <- Et in *. rewrite (check_quotes_quotes_ok _ _ Hp). cbn [bind].
  rewrite (parse_term_trim_eq (S fuel) (trim s) s) by apply trim_idem.
  destruct (parse_term (S fuel) s) as [[t|]| |]; reflexivity.
Qed.

(* C20, the k-th of several arguments: parse_arguments (p1,p2,...,pn) is parse_term of every
   piece, in order *)
Fixpoint join_comma (ps : list str) : str :=
  match ps with
  | [] => []
  | [p] => p
  | p :: rest => p ++ c_comma :: join_comma rest
  end.

(* sequencing parser results left to right *)
Fixpoint pseq {A} (rs : list (res (presult A))) : res (presult (list A)) :=
  match rs with
  | [] => pok []
  | r :: rest => dop t <- r; dop ts <- pseq rest; pok (t :: ts)
  end.

(* one argument text (blanks around it allowed): as args_plain, plus: not empty, the scan ends
   outside quotes, the trimmed text does not start with a backslash, no arithmetic infix *)
Definition piece_ok (p : str) : bool :=
  negb (str_eqb (trim p) []) && negb (hd 0 (trim p) =? c_bslash) && negb (last p 0 =? c_comma) &&
  no_arith_infix p &&
  match pa_scan p false 0 0%Z 0%Z with
  | Some (false, nq, rd, sd) => (rd =? 0)%Z && (sd =? 0)%Z && quotes_ok (trim p) nq
  | _ => false
  end.

Lemma pa_loop_comma rt ra len rest' i nq arg T start :
  pa_loop rt ra len (c_comma :: rest') i (mkPa false nq 0%Z 0%Z arg T start) =
  (dop term <- pa_make rt ra (mkPa false nq 0%Z 0%Z arg T start);
   pa_loop rt ra len rest' (S i) (mkPa false 0 0%Z 0%Z [] (T ++ [term]) (S i))).
Proof. reflexivity. Qed.

Lemma piece_ok_facts p : piece_ok p = true ->
  trim p <> [] /\ (forall tl, trim p <> c_bslash :: tl) /\ (last p 0 =? c_comma) = false /\
  no_arith_infix p = true /\
  exists nq, pa_scan p false 0 0%Z 0%Z = Some (false, nq, 0%Z, 0%Z) /\ quotes_ok (trim p) nq = true.
Proof.
  unfold piece_ok. intros H.
  apply andb_true_iff in H as [H Hs]. apply andb_true_iff in H as [H Hn].
  apply andb_true_iff in H as [H Hl]. apply andb_true_iff in H as [He Hb].
  split. { intros E. rewrite E in He. discriminate. }
  split. { intros tl E. rewrite E in Hb. discriminate. }
  split. { now apply negb_true_iff in Hl. }
  split; [exact Hn|].
  destruct (pa_scan p false 0 0%Z 0%Z) as [[[[oq nq] rd] sd]|]; [|discriminate].
  destruct oq; [discriminate|].
  apply andb_true_iff in Hs as [Hs Hq]. apply andb_true_iff in Hs as [Hrd Hsd].
  apply Z.eqb_eq in Hrd, Hsd. subst. eauto.
Qed.

Lemma pa_make_piece rt ra p nq T start :
  quotes_ok (trim p) nq = true ->
  pa_make rt ra (mkPa false nq 0%Z 0%Z p T start) = make_term rt ra (trim p).
Proof.
  intros Hq. unfold pa_make. cbn [pa_arg pa_nq].
  now rewrite (check_quotes_quotes_ok _ _ Hq).
Qed.

Lemma join_comma_cons2 p q rest : join_comma (p :: q :: rest) = p ++ c_comma :: join_comma (q :: rest).
Proof. reflexivity. Qed.

Lemma pseq_cons {A} (r : res (presult A)) rest :
  pseq (r :: rest) = (dop t <- r; dop ts <- pseq rest; pok (t :: ts)).
Proof. reflexivity. Qed.

Lemma pa_loop_pieces rt ra len : forall ps i T start,
  ps <> [] -> forallb piece_ok ps = true -> (start <= i)%nat ->
  (i + length (join_comma ps) = len)%nat ->
  (dop st <- pa_loop rt ra len (join_comma ps) i (mkPa false 0 0%Z 0%Z [] T start);
   dop terms <- (if (pa_start st <? len)%nat
                 then dop term <- pa_make rt ra st; pok (pa_terms st ++ [term])
                 else pok (pa_terms st));
   if negb (pa_rd st =? 0)%Z then perr
   else if negb (pa_sd st =? 0)%Z then perr else pok terms) =
  (dop ts <- pseq (map (fun p => make_term rt ra (trim p)) ps); pok (T ++ ts)).
Proof.
  induction ps as [|p ps IH]; intros i T start Hne Hok Hst Hlen; [now elim Hne|].
  cbn [forallb] in Hok. apply andb_true_iff in Hok as [Hp Hps].
  destruct (piece_ok_facts p Hp) as (Htne & _ & _ & _ & nq & Hscan & Hq).
  assert (Hpne : p <> []) by (intros ->; now elim Htne).
  destruct ps as [|q rest].
  - cbn [join_comma] in *. cbn [map pseq].
    rewrite (pa_loop_plain rt ra len p i _ false nq 0%Z 0%Z) by exact Hscan.
    cbn [pbind pok pa_start pa_terms pa_arg pa_rd pa_sd app].
    assert (Hlt : (start <? len)%nat = true).
    { apply Nat.ltb_lt. destruct p; [now elim Hpne|]. simpl in Hlen. lia. }
    rewrite Hlt. rewrite (pa_make_piece rt ra p nq T start Hq).
    destruct (make_term rt ra (trim p)) as [[t|]| |]; reflexivity.
  - rewrite join_comma_cons2 in *. rewrite map_cons, pseq_cons.
    rewrite (pa_loop_app_plain rt ra len p _ i _ false nq 0%Z 0%Z) by exact Hscan.
    cbn [pa_arg pa_terms pa_start app].
    rewrite pa_loop_comma. rewrite (pa_make_piece rt ra p nq T start Hq).
    destruct (make_term rt ra (trim p)) as [[t|]| |]; cbn [pbind]; try reflexivity.
    rewrite (IH (S (i + length p)) (T ++ [t]) (S (i + length p))); [|discriminate|exact Hps|lia|].
    + destruct (pseq (map (fun p0 => make_term rt ra (trim p0)) (q :: rest))) as [[ts|]| |];
        cbn [pbind pok]; try reflexivity. now rewrite <- app_assoc.
    + rewrite app_length in Hlen. cbn [length] in Hlen. lia.
Qed.

Lemma piece_ok_nonempty p : piece_ok p = true -> p <> [].
Proof. intros H ->. now destruct (piece_ok_facts [] H) as [Hne _]. Qed.

(* the joined text ends like its last piece: not with a comma *)
Lemma last_join_comma ps : ps <> [] -> forallb piece_ok ps = true ->
  join_comma ps <> [] /\ (last (join_comma ps) 0 =? c_comma) = false.
Proof.
  induction ps as [|p [|q rest] IH]; intros Hne Hok; [now elim Hne| |];
    cbn [forallb] in Hok; apply andb_true_iff in Hok as [Hp Hps].
  - split; [now apply piece_ok_nonempty|]. now destruct (piece_ok_facts p Hp) as (_ & _ & Hl & _).
  - destruct (IH ltac:(discriminate) Hps) as [Hj Hl]. rewrite join_comma_cons2.
    split; [intros E; apply app_eq_nil in E as [_ E]; discriminate|].
    rewrite last_app_any. cbn [last]. destruct (join_comma (q :: rest)) as [|j0 j]; [now elim Hj|].
    now rewrite (last_default (j0 :: j) _ 0) by discriminate.
Qed.

Theorem context_independent_args_nary : forall fuel ps,
  ps <> [] -> forallb piece_ok ps = true -> trim (join_comma ps) = join_comma ps ->
  parse_arguments (S fuel) (join_comma ps) = pseq (map (parse_term (S fuel)) ps).
Proof.
  intros fuel ps Hne Hok Htrim. cbn [parse_arguments]. unfold parse_arguments_body. rewrite Htrim.
  set (rt := parse_term fuel). set (ra := parse_arguments fuel).
  destruct (last_join_comma ps Hne Hok) as [Hj Hl].
  (* the text does not start with a comma: the scan of the first piece would stop there *)
  assert (Hc : (hd 0 (join_comma ps) =? c_comma) = false).
  { destruct ps as [|p0 ps0]; [now elim Hne|]. cbn [forallb] in Hok. apply andb_true_iff in Hok as [Hp0 _].
    destruct (piece_ok_facts p0 Hp0) as (_ & _ & _ & _ & nq0 & Hscan0 & _).
    destruct p0 as [|c r]; [now elim (piece_ok_nonempty [] Hp0)|].
    assert (E : (c =? c_comma) = false).
    { destruct (c =? c_comma) eqn:E; [|reflexivity]. apply N.eqb_eq in E. subst c. discriminate Hscan0. }
    now destruct ps0. }
  destruct (join_comma ps) as [|c r'] eqn:Ew; [now elim Hj|]. cbn [hd] in Hc. rewrite Hc, Hl, <- Ew.
  cbn [bind].
  pose proof (pa_loop_pieces rt ra (length (join_comma ps)) ps 0 [] 0 Hne Hok ltac:(lia) ltac:(lia)) as HL.
  cbn [app] in HL. rewrite HL.
  (* every piece: make_term (trim p) is parse_term p *)
  rewrite (map_ext_in _ (parse_term (S fuel))).
  - destruct (pseq (map (parse_term (S fuel)) ps)) as [[ts|]| |]; reflexivity.
  - intros p Hin. rewrite forallb_forall in Hok.
    destruct (piece_ok_facts p (Hok p Hin)) as (_ & Hb & _ & Hn & _).
    cbn [parse_term]. fold rt ra. now rewrite parse_term_body_plain.
Qed.

(* the side conditions of all contexts together (Properties/C20.v, C20_context_independent) *)
Definition C20_side (s : str) : bool :=
  args_plain s && no_arith_infix s && list_plain s && parens_balanced s &&
  negb (str_eqb (trim s) []).

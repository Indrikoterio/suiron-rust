(* Smaller facts used by C01 and C04: the formatting of print and of answers. *)
From Suiron Require Import Model.Term Model.Subst Model.Show Model.Lists Model.Arith Model.Unify
  Model.Compare Model.Builtins Model.Rename Model.Solve Spec.SpecSolve Proofs.SolveDead.
Open Scope N_scope.

Definition no_pct (s : str) : Prop := ~ In 37 s.

Lemma no_pct_cons c p : no_pct (c :: p) -> c <> 37 /\ no_pct p.
Proof. intro Hn. split; intro X; apply Hn; [left|right]; auto. Qed.

Lemma split_pct_s_other c p acc : c <> 37 -> split_pct_s acc (c :: p) = split_pct_s (c :: acc) p.
Proof.
  intro Hc. destruct c as [|q]; [reflexivity|].
  do 6 (destruct q as [q|q|]; try reflexivity). congruence.
Qed.

Lemma split_no_pct : forall p acc, no_pct p -> split_pct_s acc p = [rev acc ++ p].
Proof.
  induction p as [|c p IH]; intros acc Hn; [simpl; now rewrite app_nil_r|].
  destruct (no_pct_cons _ _ Hn) as [Hc Hp].
  rewrite split_pct_s_other, IH by assumption. simpl. now rewrite <- app_assoc.
Qed.

Lemma split_at_marker : forall p acc rest, no_pct p ->
  split_pct_s acc (p ++ 37 :: 115 :: rest) = (rev acc ++ p) :: split_pct_s [] rest.
Proof.
  induction p as [|c p IH]; intros acc rest Hn; [simpl; now rewrite app_nil_r|].
  destruct (no_pct_cons _ _ Hn) as [Hc Hp].
  rewrite <- app_comm_cons, split_pct_s_other, IH by assumption. simpl. now rewrite <- app_assoc.
Qed.

(* the format string as pieces joined by the marker "%s" *)
Fixpoint with_markers (p0 : str) (pieces : list str) : str :=
  match pieces with
  | [] => p0
  | p :: r => p0 ++ 37 :: 115 :: with_markers p r
  end.

Lemma split_with_markers : forall pieces p0, no_pct p0 -> Forall no_pct pieces ->
  split_pct_s [] (with_markers p0 pieces) = p0 :: pieces.
Proof.
  induction pieces as [|p r IH]; intros p0 H0 Hf; simpl.
  - now rewrite split_no_pct.
  - inversion Hf; subst. rewrite split_at_marker by assumption. simpl. now rewrite IH.
Qed.

(* each argument replaces one marker; surplus arguments are appended, surplus markers vanish *)
Fixpoint fill (args pieces : list str) {struct args} : str :=
  match args with
  | a :: ar =>
      match pieces with
      | p :: pr => a ++ p ++ fill ar pr
      | [] => a ++ fill ar []
      end
  | [] => concat pieces
  end.

Lemma interleave_fill : forall args pieces, interleave args pieces = fill args pieces.
Proof.
  induction args as [|a ar IH]; intros [|p pr]; simpl; try reflexivity; try (now rewrite IH).
Qed.

(* format_solution: `name = value` for the query's variable arguments, in order *)
Fixpoint var_pairs (qs rs : list term) : list (str * term) :=
  match qs, rs with
  | TVar _ name :: qs', r :: rs' => (name, r) :: var_pairs qs' rs'
  | _ :: qs', _ :: rs' => var_pairs qs' rs'
  | _, _ => []
  end.

Fixpoint show_pairs (first : bool) (l : list (str * term)) : str :=
  match l with
  | [] => []
  | (name, r) :: l' => (if first then [] else sep_comma) ++ name ++ [32; 61; 32] ++ show_term r ++ show_pairs false l'
  end.

Lemma format_pairs_spec : forall qs rs first, length qs = length rs ->
  format_pairs first qs rs = Ok (show_pairs first (var_pairs qs rs)).
Proof.
  induction qs as [|q qs IH]; intros [|r rs] first Hl; simpl in Hl; try discriminate; [reflexivity|].
  injection Hl as Hl. simpl. destruct q; try (apply IH; exact Hl).
  now rewrite IH.
Qed.


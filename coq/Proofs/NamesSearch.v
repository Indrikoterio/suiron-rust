(* C11, names are ignored: the reference search (Spec/SpecCut.v) over a knowledge base and over the
   same knowledge base with the variables of every clause renamed (kb_renamed, per clause
   injective) gives the same answers up to the names of variables, the same variable-id counter,
   stop flag and stop schedule, the same signal and the same outcome class.  What is PRINTED is
   not related: print shows the names of unbound variables.

   Two syntactic conditions on the program (`okkb`) are needed, each with a counterexample when it
   is dropped (Properties/C11.v):
     - no function term `join(..)` with a variable among its arguments: join turns an unbound
       variable into text that contains its name;
     - the functor of a call goal contains no variable: the key under which clauses are looked up
       is `show_term functor ++ "/" ++ arity`, which contains the name of a variable.

   The invariant is a Kripke-style relation: the admissible (id, name, name') triples V grow with
   every clause fetch; all ids in V are at most the id counter, so the ids of a fetch are new, and
   an id determines its names (vfun), so that the engine's `term_eqb` (which compares names too)
   behaves alike on both sides. *)
From Coq Require Import Lia.
From Suiron Require Import Model.Term Model.Subst Model.Show Model.Lists Model.Arith Model.Unify
  Model.Compare Model.Builtins Model.Rename Model.Solve Spec.SpecCut
  Proofs.RenameProofs Proofs.RenameNames Proofs.NamesRel Proofs.NamesUnify Proofs.NamesBuiltins.
Open Scope N_scope.

Section SimG.
  Variable V : vrel.

  Inductive simg : goal -> goal -> Prop :=
  | simg_op k gs gs' : Forall2 simg gs gs' -> simg (GOp k gs) (GOp k gs')
  | simg_bip f ts ts' : orel (Forall2 (sim V)) ts ts' -> simg (GBip f ts) (GBip f ts')
  | simg_call t t' : sim V t t' -> term_key t = term_key t' -> simg (GCall t) (GCall t')
  | simg_nil : simg GNil GNil.

  Section simg_ind2.
    Variable P : goal -> goal -> Prop.
    Hypothesis Hop : forall k gs gs', Forall2 simg gs gs' -> Forall2 P gs gs' -> P (GOp k gs) (GOp k gs').
    Hypothesis Hbip : forall f ts ts', orel (Forall2 (sim V)) ts ts' -> P (GBip f ts) (GBip f ts').
    Hypothesis Hcall : forall t t', sim V t t' -> term_key t = term_key t' -> P (GCall t) (GCall t').
    Hypothesis Hnil : P GNil GNil.
    Fixpoint simg_ind2 (g g' : goal) (H : simg g g') {struct H} : P g g' :=
      match H in simg g g' return P g g' with
      | simg_op k gs gs' HF =>
          Hop k gs gs' HF
            ((fix go (l l' : list goal) (h : Forall2 simg l l') {struct h} : Forall2 P l l' :=
                match h in Forall2 _ l l' return Forall2 P l l' with
                | Forall2_nil _ => Forall2_nil P
                | Forall2_cons x y hxy hl => Forall2_cons x y (simg_ind2 x y hxy) (go _ _ hl)
                end) gs gs' HF)
      | simg_bip f ts ts' Ht => Hbip f ts ts' Ht
      | simg_call t t' Ht Hk => Hcall t t' Ht Hk
      | simg_nil => Hnil
      end.
  End simg_ind2.

  Lemma simg_has_cut g g' : simg g g' -> has_cut g = has_cut g'.
  Proof.
    intro H. induction H as [k gs gs' HF IH|f ts ts' Ht|t t' Ht Hk|] using simg_ind2; try reflexivity.
    cbn [has_cut]. induction IH as [|x y l l' Hxy Hl IHl]; [reflexivity|].
    inversion HF; subst. rewrite Hxy. f_equal. apply IHl. assumption.
  Qed.

  Lemma simg_is_gnil g g' : simg g g' -> is_gnil g = is_gnil g'.
  Proof. destruct 1; reflexivity. Qed.
End SimG.

Lemma simg_mono V V' : vle V V' -> forall g g', simg V g g' -> simg V' g g'.
Proof.
  intros Hle g g' H. induction H as [k gs gs' HF IH|f ts ts' Ht|t t' Ht Hk|] using simg_ind2.
  - constructor. exact IH.
  - constructor. destruct ts, ts'; cbn in *; try contradiction; auto. eapply simts_mono; eauto.
  - constructor; [eapply sim_mono; eauto|exact Hk].
  - constructor.
Qed.

Fixpoint okt (t : term) : bool :=
  match t with
  | TComplex ts => forallb okt ts
  | TList a n _ _ => okt a && okt n
  | TFun name args => (negb (str_eqb name fname_join) || forallb novars args) && forallb okt args
  | _ => true
  end.

Definition okcall (t : term) : bool :=
  match t with
  | TComplex (f :: _) => novars f
  | _ => true
  end.

Fixpoint okg (g : goal) : bool :=
  match g with
  | GOp _ gs => forallb okg gs
  | GBip _ (Some ts) => forallb okt ts
  | GBip _ None => true
  | GCall t => okt t && okcall t
  | GNil => true
  end.

Definition okr (r : rule) : bool := okt (r_head r) && okg (r_body r).
Definition okkb (kb : kbase) : bool := forallb (fun e => forallb okr (snd e)) kb.

Lemma forallb_map_ext {A} (f : A -> A) (p : A -> bool) l :
  Forall (fun x => p (f x) = p x) l -> forallb p (map f l) = forallb p l.
Proof. induction 1 as [|x l Hx _ IH]; cbn; [reflexivity|]. now rewrite Hx, IH. Qed.

(* the conditions do not look at ids *)
Lemma novars_erase : forall t, novars (erase t) = novars t.
Proof.
  induction t as [| |a0|f0|z0|id0 nm0|ts Hts|a n c tv IHa IHn|nm args Hargs] using term_ind';
    cbn [erase novars]; auto using forallb_map_ext. now rewrite IHa, IHn.
Qed.

Lemma okt_erase : forall t, okt (erase t) = okt t.
Proof.
  induction t as [| |a0|f0|z0|id0 nm0|ts Hts|a n c tv IHa IHn|nm args Hargs] using term_ind';
    cbn [erase okt]; auto using forallb_map_ext.
  - now rewrite IHa, IHn.
  - rewrite (forallb_map_ext erase okt _ Hargs). do 2 f_equal.
    apply forallb_map_ext, Forall_forall. intros x _. apply novars_erase.
Qed.

Lemma okts_erase ts : forallb okt (map erase ts) = forallb okt ts.
Proof. apply forallb_map_ext, Forall_forall. intros x _. apply okt_erase. Qed.

Lemma okcall_erase t : okcall (erase t) = okcall t.
Proof.
  destruct t; try reflexivity. destruct ts as [|f r]; [reflexivity|]. cbn. apply novars_erase.
Qed.

Lemma okg_erase : forall g, okg (erase_goal g) = okg g.
Proof.
  induction g as [k gs Hgs|f [ts|]|t|] using goal_ind'; cbn [erase_goal okg];
    auto using forallb_map_ext, okts_erase. now rewrite okt_erase, okcall_erase.
Qed.

Lemma okr_erase r : okr (erase_rule r) = okr r.
Proof. unfold okr, erase_rule. cbn [r_head r_body]. now rewrite okt_erase, okg_erase. Qed.

Lemma kb_get_ok kb key rules : okkb kb = true -> kb_get kb key = Some rules -> forallb okr rules = true.
Proof.
  induction kb as [|[k rs] kb IH]; cbn; [discriminate|].
  intros H Hg. apply andb_true_iff in H as [H1 H2].
  destruct (str_eqb k key); [inversion Hg; subst; exact H1|auto].
Qed.

(* a renamed term is related to the term, over any V that has its variables *)
Section Mapn.
  Variable phi : str -> str.
  Variable V : vrel.

  Definition covers (occ : list (N * str)) : Prop := forall id a, In (id, a) occ -> V id a (phi a).

  Lemma covers_app a b : covers (a ++ b) -> covers a /\ covers b.
  Proof. intro H. split; intros id x Hin; apply H, in_or_app; auto. Qed.

  (* a list is related to its image when each element that passes `ok` and is covered is *)
  Lemma Forall2_map_covered {A} (R : A -> A -> Prop) (f : A -> A) (ok : A -> bool) (vars : A -> list (N * str)) l :
    Forall (fun x => ok x = true -> covers (vars x) -> R x (f x)) l ->
    forallb ok l = true -> covers (flat_map vars l) -> Forall2 R l (map f l).
  Proof.
    induction 1 as [|x l Hx _ IH]; cbn [forallb flat_map map]; intros Hok Hc; constructor;
      apply andb_true_iff in Hok as [H1 H2]; apply covers_app in Hc as [C1 C2]; auto.
  Qed.

  Lemma sim_mapn : forall t, okt t = true -> covers (tvars t) -> sim V t (mapn phi t).
  Proof.
    induction t as [| |a0|f0|z0|id0 nm0|ts Hts|a n c tv IHa IHn|nm args Hargs] using term_ind';
      cbn [okt tvars mapn]; intros Hok Hc; try (constructor; fail).
    - constructor. apply Hc. left. reflexivity.
    - constructor. apply (Forall2_map_covered _ _ okt tvars); assumption.
    - apply andb_true_iff in Hok as [H1 H2]. apply covers_app in Hc as [C1 C2]. constructor; auto.
    - apply andb_true_iff in Hok as [H1 H2]. constructor.
      + apply orb_true_iff in H1 as [H1|H1]; [left; now destruct (str_eqb nm fname_join)|right; exact H1].
      + apply (Forall2_map_covered _ _ okt tvars); assumption.
  Qed.

  Lemma simts_mapn ts : forallb okt ts = true -> covers (flat_map tvars ts) ->
    Forall2 (sim V) ts (map (mapn phi) ts).
  Proof. apply Forall2_map_covered, Forall_forall. intros t _. apply sim_mapn. Qed.

  Lemma map_fix {A} (f : A -> A) (p : A -> bool) l :
    Forall (fun x => p x = true -> f x = x) l -> forallb p l = true -> map f l = l.
  Proof.
    induction 1 as [|x l Hx _ IH]; [reflexivity|]. cbn. intro H. apply andb_true_iff in H as [H1 H2].
    now rewrite (Hx H1), (IH H2).
  Qed.

  Lemma mapn_novars : forall t, novars t = true -> mapn phi t = t.
  Proof.
    induction t as [| |a0|f0|z0|id0 nm0|ts Hts|a n c tv IHa IHn|nm args Hargs] using term_ind';
      cbn [mapn novars]; intro H; try reflexivity; try discriminate.
    - now rewrite (map_fix _ _ _ Hts H).
    - apply andb_true_iff in H as [H1 H2]. now rewrite IHa, IHn.
    - now rewrite (map_fix _ _ _ Hargs H).
  Qed.

  Lemma term_key_mapn t : okcall t = true -> term_key (mapn phi t) = term_key t.
  Proof.
    destruct t; try reflexivity. destruct ts as [|f r]; [reflexivity|].
    cbn [okcall mapn map term_key]. intro H. rewrite (mapn_novars _ H). now rewrite map_length.
  Qed.

  Lemma simg_mapn : forall g, okg g = true -> covers (gvars g) -> simg V g (mapn_goal phi g).
  Proof.
    induction g as [k gs Hgs|f [ts|]|t|] using goal_ind'; cbn [mapn_goal okg gvars]; intros Hok Hc;
      constructor; try exact I.
    - apply (Forall2_map_covered _ _ okg gvars); assumption.
    - apply simts_mapn; assumption.
    - apply andb_true_iff in Hok as [H1 H2]. apply sim_mapn; assumption.
    - apply andb_true_iff in Hok as [H1 H2]. symmetry. apply term_key_mapn, H2.
  Qed.
End Mapn.

(* a clause fetch extends V *)
Definition fetch_rel (V : vrel) (ctr : N) (x x' : rule * N) : Prop :=
  snd x = snd x' /\ ctr <= snd x /\
  exists V1, vle V V1 /\ vfun V1 /\ vbound V1 (snd x) /\
             sim V1 (r_head (fst x)) (r_head (fst x')) /\ simg V1 (r_body (fst x)) (r_body (fst x')).

Lemma get_rule_sim V kb kb' key idx ctr :
  kb_renamed kb kb' -> okkb kb = true -> vfun V -> vbound V ctr ->
  rrel (fetch_rel V ctr) (get_rule kb key idx ctr) (get_rule kb' key idx ctr).
Proof.
  intros Hkb Hok Hf Hb. pose proof (get_rule_renamed kb kb' key idx ctr Hkb) as HG.
  destruct (get_rule kb key idx ctr) as [[r ctr']| |] eqn:Hg, (get_rule kb' key idx ctr) as [[r' c']| |];
    try contradiction; try exact I.
  destruct HG as [<- (phi & Hinj & ->)].
  destruct (get_rule_spec _ _ _ _ _ _ Hg) as (r0 & rules & Hget & Hnth & Her & Hle & Hcons & Hfresh).
  assert (okr r = true) as Hokr.
  { rewrite <- okr_erase, Her, okr_erase.
    pose proof (kb_get_ok _ _ _ Hok Hget) as Hall. rewrite forallb_forall in Hall.
    apply Hall. eapply nth_error_In, Hnth. }
  unfold okr in Hokr. apply andb_true_iff in Hokr as [Hoh Hob].
  split; [reflexivity|]. split; [exact Hle|]. cbn [fst snd].
  (* the new triples: the fetched clause's own variables with their renamed names *)
  set (V1 := fun id a b => V id a b \/ (In (id, a) (rvars r) /\ b = phi a)).
  exists V1. split; [|split; [|split]].
  - intros id a b H. left. exact H.
  - intros id a b a' b' [H1|[H1 E1]] [H2|[H2 E2]].
    + eapply Hf; eauto.
    + specialize (Hb _ _ _ H1). specialize (Hfresh _ _ H2). lia.
    + specialize (Hb _ _ _ H2). specialize (Hfresh _ _ H1). lia.
    + assert (a = a') as -> by (apply (Hcons _ _ _ _ H1 H2); reflexivity). subst. auto.
  - intros id a b [H|[H _]].
    + specialize (Hb _ _ _ H). lia.
    + specialize (Hfresh _ _ H). lia.
  - assert (covers phi V1 (rvars r)) as Hc by (intros id a Hin; right; auto).
    unfold rvars in Hc. apply covers_app in Hc as [C1 C2]. cbn [mapn_rule r_head r_body]. split.
    + apply sim_mapn; assumption.
    + apply simg_mapn; assumption.
Qed.

(* worlds: the output text is not compared *)
Definition wsim (w w' : world) : Prop :=
  next_id w = next_id w' /\ stop_flag w = stop_flag w' /\ stop_after w = stop_after w'.

Lemma wsim_refl w : wsim w w. Proof. repeat split. Qed.
Lemma wsim_print w w' o o' : wsim w w' -> wsim (w_print w o) (w_print w' o').
Proof. intros (H1 & H2 & H3). repeat split; assumption. Qed.
Lemma wsim_set_id w w' n : wsim w w' -> wsim (w_set_id w n) (w_set_id w' n).
Proof. intros (H1 & H2 & H3). repeat split; assumption. Qed.

Lemma count_rules_sim kb kb' key w w' : kb_renamed kb kb' -> wsim w w' ->
  fst (count_rules kb key w) = fst (count_rules kb' key w') /\
  wsim (snd (count_rules kb key w)) (snd (count_rules kb' key w')) /\
  next_id (snd (count_rules kb key w)) = next_id w.
Proof.
  intros Hkb (H1 & H2 & H3). unfold count_rules, query_stopped.
  destruct w as [i fl sa o], w' as [i' fl' sa' o']. cbn [next_id stop_flag stop_after out] in *. subst i' fl' sa'.
  pose proof (kb_get_renamed _ _ key Hkb) as Hg.
  assert (match kb_get kb key with Some l => N.of_nat (length l) | None => 0 end =
          match kb_get kb' key with Some l => N.of_nat (length l) | None => 0 end) as Hlen.
  { destruct (kb_get kb key), (kb_get kb' key); try contradiction; [|reflexivity].
    now rewrite (Forall2_length' _ _ _ Hg). }
  destruct sa as [[|p]|]; [|destruct fl..]; cbn [fst snd next_id]; repeat split; assumption.
Qed.

(* an answer pair: related over some extension of V whose ids are at most n *)
Definition arel (V : vrel) (n : N) (s s' : subst) : Prop :=
  exists V', vle V V' /\ vfun V' /\ vbound V' n /\ sims V' s s'.

Definition cres_rel (V : vrel) (n : N) (x x' : cres) : Prop :=
  match x, x' with
  | (a, w, sg), (a', w', sg') =>
      Forall2 (arel V (next_id w)) a a' /\ wsim w w' /\ sg = sg' /\ n <= next_id w
  end.

Definition post (V : vrel) (n : N) : res cres -> res cres -> Prop := rrel (cres_rel V n).

Definition kvalid (V : vrel) (k k' : ckont) : Prop :=
  forall V' s s' w w' c, vle V V' -> vfun V' -> vbound V' (next_id w) -> sims V' s s' -> wsim w w' ->
    post V' (next_id w) (k s w c) (k' s' w' c).

Lemma arel_weaken V0 V n n' s s' : vle V0 V -> n <= n' -> arel V n s s' -> arel V0 n' s s'.
Proof.
  intros Hle Hn (V' & H1 & H2 & H3 & H4). exists V'. split; [eapply vle_trans; eauto|].
  split; [exact H2|]. split; [eapply vbound_le; eauto|exact H4].
Qed.

Lemma cres_rel_weaken V0 V n0 n x x' : vle V0 V -> n0 <= n -> cres_rel V n x x' -> cres_rel V0 n0 x x'.
Proof.
  intros Hle Hn. destruct x as [[a w] sg], x' as [[a' w'] sg']. cbn. intros (H1 & H2 & H3 & H4).
  split; [|split; [exact H2|split; [exact H3|lia]]].
  eapply Forall2_mono; [|exact H1]. intros s s'. apply arel_weaken; [exact Hle|lia].
Qed.

Lemma post_weaken V0 V n0 n r r' : vle V0 V -> n0 <= n -> post V n r r' -> post V0 n0 r r'.
Proof. intros Hle Hn. apply rrel_mono. intros x x'. apply cres_rel_weaken; assumption. Qed.

Lemma cres_rel_mark V n c x x' : cres_rel V n x x' -> cres_rel V n (mark c x) (mark c x').
Proof.
  destruct x as [[a w] sg], x' as [[a' w'] sg']. destruct c; cbn; [|auto].
  intros (H1 & H2 & H3 & H4). subst. auto.
Qed.

Lemma post_mark V n c r r' : post V n r r' ->
  post V n (do x <- r; Ok (mark c x)) (do x <- r'; Ok (mark c x)).
Proof. intro H. eapply rrel_bind; [exact H|]. intros x x' Hx. apply cres_rel_mark, Hx. Qed.

(* going on after the answers a1: what seq and after_body do on the signal Go *)
Lemma app_post V n a1 a1' w1 w1' (b b' : world -> res cres) :
  Forall2 (arel V (next_id w1)) a1 a1' -> wsim w1 w1' -> n <= next_id w1 ->
  (forall w2 w2', wsim w2 w2' -> n <= next_id w2 -> post V (next_id w2) (b w2) (b' w2')) ->
  post V n (do y <- b w1; let '(a2, w2, s2) := y in Ok (a1 ++ a2, w2, s2))
           (do y <- b' w1'; let '(a2, w2, s2) := y in Ok (a1' ++ a2, w2, s2)).
Proof.
  intros H1 Hw Hn Hb. eapply rrel_bind; [exact (Hb _ _ Hw Hn)|].
  intros [[a2 w2] s2] [[a2' w2'] s2'] (H2 & H3 & H4 & H5). cbn.
  split; [|split; [exact H3|split; [exact H4|lia]]].
  apply Forall2_app; [|exact H2].
  eapply Forall2_mono; [|exact H1]. intros s s'. apply arel_weaken; [apply vle_refl|exact H5].
Qed.

Lemma seq_post V n a a' (b b' : world -> res cres) :
  post V n a a' ->
  (forall w1 w1', wsim w1 w1' -> n <= next_id w1 -> post V (next_id w1) (b w1) (b' w1')) ->
  post V n (seq a b) (seq a' b').
Proof.
  intros Ha Hb. unfold seq. eapply rrel_bind; [exact Ha|].
  intros [[a1 w1] s1] [[a1' w1'] s1'] (H1 & H2 & H3 & H4). subst s1'.
  destruct s1; try (cbn; auto; fail). apply app_post; assumption.
Qed.

Lemma after_body_post V n x x' (rest rest' : world -> res cres) :
  cres_rel V n x x' ->
  (forall w1 w1', wsim w1 w1' -> n <= next_id w1 -> post V (next_id w1) (rest w1) (rest' w1')) ->
  post V n (after_body x rest) (after_body x' rest').
Proof.
  destruct x as [[a1 w1] s1], x' as [[a1' w1'] s1']. intros (H1 & H2 & H3 & H4) Hb. subst s1'.
  unfold after_body. destruct s1 as [|[|m]|]; try (cbn; auto; fail). apply app_post; assumption.
Qed.

Lemma kvalid_le V V' k k' : vle V V' -> kvalid V k k' -> kvalid V' k k'.
Proof.
  intros Hle Hk V2 s s' w w' c H1 H2 H3 H4 H5. apply Hk; try assumption. eapply vle_trans; eauto.
Qed.

Lemma kvalid_kwrap V c1 k k' : kvalid V k k' -> kvalid V (kwrap c1 k) (kwrap c1 k').
Proof.
  intros Hk V2 s s' w w' c H1 H2 H3 H4 H5. unfold kwrap. apply post_mark. apply Hk; assumption.
Qed.

Lemma kvalid_kbump V k k' : kvalid V k k' -> kvalid V (kbump k) (kbump k').
Proof.
  intros Hk V2 s s' w w' c H1 H2 H3 H4 H5. unfold kbump.
  eapply rrel_bind; [apply (Hk V2 s s' w w' false); assumption|].
  intros [[a w1] sg] [[a' w1'] sg'] (R1 & R2 & R3 & R4). subst. cbn. auto.
Qed.

Lemma sims_arel V n s s' : vfun V -> vbound V n -> sims V s s' -> arel V n s s'.
Proof. intros H1 H2 H3. exists V. split; [apply vle_refl|auto]. Qed.

(* the continuations that deliver their one answer: halt1 (sg = Halt), the collector of canswers (Go) *)
Lemma kvalid_ret V sg : kvalid V (fun s w _ => Ok ([s], w, sg)) (fun s w _ => Ok ([s], w, sg)).
Proof.
  intros V2 s s' w w' c H1 H2 H3 H4 H5. cbn.
  split; [constructor; [apply sims_arel; assumption|constructor]|]. split; [exact H5|]. split; [reflexivity|lia].
Qed.

Lemma post_none V n w w' sg : wsim w w' -> n <= next_id w -> post V n (Ok ([], w, sg)) (Ok ([], w', sg)).
Proof. intros Hw Hn. cbn. split; [constructor|]. split; [exact Hw|]. split; [reflexivity|exact Hn]. Qed.

Section Search.
  Variable kb kb' : kbase.
  Variable bf : nat.
  Hypothesis Hkb : kb_renamed kb kb'.
  Hypothesis Hok : okkb kb = true.

  Definition cs_ok (cs cs' : goal -> subst -> world -> ckont -> res cres) : Prop :=
    forall V g g' s s' w w' k k', vfun V -> vbound V (next_id w) -> simg V g g' -> sims V s s' ->
      wsim w w' -> kvalid V k k' -> post V (next_id w) (cs g s w k) (cs' g' s' w' k').

  Definition cc_ok (cc cc' : term -> subst -> str -> N -> N -> world -> ckont -> res cres) : Prop :=
    forall V t t' s s' key idx n w w' k k', vfun V -> vbound V (next_id w) -> sim V t t' -> sims V s s' ->
      wsim w w' -> kvalid V k k' -> post V (next_id w) (cc t s key idx n w k) (cc' t' s' key idx n w' k').

  Lemma csolve_body_ok cs cs' cc cc' : cs_ok cs cs' -> cc_ok cc cc' ->
    cs_ok (csolve_body kb bf cs cc) (csolve_body kb' bf cs' cc').
  Proof.
    intros Hcs Hcc V g g' s s' w w' k k' Hf Hb Hg Hs Hw Hk. unfold csolve_body.
    destruct Hg as [op gs gs' HF|fn ts ts' Ht|t t' Ht Hkey|].
    - destruct HF as [|g1 g1' r r' H1 Hr]; [destruct op; exact I|]. destruct op.
      (* and, or: a single operand stands for itself *)
      1, 2: destruct Hr as [|g2 g2' r r' H2 Hr]; [apply Hcs; assumption|].
      (* time, not: the operand is asked for its first answer *)
      3, 4: apply rrel_if; [exact (simg_has_cut _ _ _ H1)|exact I|];
        (eapply rrel_bind; [apply (Hcs V); try eassumption; apply (kvalid_ret V Halt)|]);
        intros [[a w1] sg] [[a' w1'] sg'] (R1 & R2 & R3 & R4).
      + (* and *)
        apply Hcs; try assumption.
        intros V2 s1 s1' w1 w1' c1 L F B S W. apply post_mark. apply Hcs; try assumption.
        * eapply simg_mono; [exact L|]. constructor. constructor; assumption.
        * apply kvalid_kwrap. eapply kvalid_le; eauto.
      + (* or *)
        apply seq_post; [apply Hcs; assumption|].
        intros w1 w1' W N. apply Hcs; try assumption.
        * eapply vbound_le; eauto.
        * constructor. constructor; assumption.
      + (* time *)
        destruct R1 as [|s1 s1' a a' (V1 & L1 & F1 & B1 & S1) R1].
        * apply post_none; [apply wsim_print, R2|exact R4].
        * eapply post_weaken; [exact L1|exact R4|].
          apply (Hk V1 s1 s1' (w_print w1 elapsed_token) (w_print w1' elapsed_token) false); try assumption;
            apply wsim_print, R2.
      + (* not *)
        destruct R1 as [|s1 s1' a a' _ R1].
        * eapply post_weaken; [apply vle_refl|exact R4|].
          apply (Hk V s s' w1 w1' false); try assumption; [apply vle_refl|eapply vbound_le; eauto].
        * apply post_none; assumption.
    - (* built-in predicate *)
      eapply rrel_bind; [apply (run_bip_sim V Hf); eassumption|].
      intros r r' [Hsol Hcut]. rewrite <- Hcut.
      destruct (br_sol r) as [s1|], (br_sol r') as [s1'|]; cbn in Hsol; try contradiction.
      + apply post_mark.
        apply (Hk V s1 s1' (w_print w (br_out r)) (w_print w' (br_out r')) (br_cut r)); try assumption;
          try (apply vle_refl); try (apply wsim_print, Hw).
      + apply post_none; [apply wsim_print, Hw|cbn; lia].
    - (* call *)
      rewrite <- Hkey. destruct (term_key t) as [key| |]; cbn [bind]; try exact I.
      pose proof (count_rules_sim kb kb' key w w' Hkb Hw) as (C1 & C2 & C3).
      destruct (count_rules kb key w) as [n w0], (count_rules kb' key w') as [n' w0'].
      cbn [fst snd] in *. subst n'. rewrite <- C3. apply Hcc; try assumption. now rewrite C3.
    - exact I.
  Qed.

  Lemma cclauses_body_ok cs cs' cc cc' : cs_ok cs cs' -> cc_ok cc cc' ->
    cc_ok (cclauses_body kb bf cs cc) (cclauses_body kb' bf cs' cc').
  Proof.
    intros Hcs Hcc V t t' s s' key idx n w w' k k' Hf Hb Ht Hs Hw Hk. unfold cclauses_body.
    destruct (n <=? idx).
    { apply post_none; [exact Hw|lia]. }
    pose proof Hw as (W1 & _). rewrite <- W1.
    rbind; [apply (get_rule_sim V); eassumption|].
    intros [r ctr] [r' ctr'] (E & Le & V1 & L1 & F1 & B1 & Hh & Hbd). cbn [fst snd] in *. subst ctr'.
    assert (forall w2 w2', wsim w2 w2' -> next_id w <= next_id w2 ->
              post V (next_id w2) (cc t s key (idx + 1) n w2 k) (cc' t' s' key (idx + 1) n w2' k')) as Hrest.
    { intros w2 w2' W N. apply Hcc; try assumption. eapply vbound_le; eauto. }
    eapply rrel_bind_opt;
      [apply (unify_sim V1 F1); [exact Hh|eapply sim_mono; eauto|eapply sims_mono; eauto]| |].
    - apply (Hrest (w_set_id (w_set_id w ctr) (next_id w)) (w_set_id (w_set_id w' ctr) (next_id w)));
        [apply wsim_set_id, wsim_set_id, Hw|cbn; lia].
    - intros s1 s1' Hu. apply rrel_if; [exact (simg_is_gnil _ _ _ Hbd)| |].
      + apply seq_post; [|exact Hrest].
        eapply post_weaken; [exact L1|exact Le|].
        apply (Hk V1 s1 s1' (w_set_id w ctr) (w_set_id w' ctr) false); try assumption;
          try (apply wsim_set_id, Hw).
      + eapply rrel_bind.
        * eapply post_weaken; [exact L1|exact Le|].
          apply (Hcs V1 _ _ s1 s1' (w_set_id w ctr) (w_set_id w' ctr)); try assumption;
            try (apply wsim_set_id, Hw).
          apply kvalid_kbump. eapply kvalid_le; eauto.
        * intros x x' Hx. apply after_body_post; [exact Hx|exact Hrest].
  Qed.

  Theorem csolve_sim : forall f,
    cs_ok (csolve kb bf f) (csolve kb' bf f) /\ cc_ok (cclauses kb bf f) (cclauses kb' bf f).
  Proof.
    induction f as [|f [IHs IHc]].
    - split; repeat intro; exact I.
    - split.
      + intros V g g' s s' w w' k k'. rewrite !csolve_S. apply csolve_body_ok; assumption.
      + intros V t t' s s' key idx n w w' k k'. rewrite !cclauses_S. apply cclauses_body_ok; assumption.
  Qed.

  Definition ans_rel (V : vrel) (n : N) (x x' : list subst * world) : Prop :=
    Forall2 (arel V (next_id (snd x))) (fst x) (fst x') /\ wsim (snd x) (snd x') /\ n <= next_id (snd x).

  Theorem canswers_sim V fuel q q' w w' :
    vfun V -> vbound V (next_id w) -> sim V q q' -> term_key q = term_key q' -> wsim w w' ->
    rrel (ans_rel V (next_id w)) (canswers kb bf fuel q w) (canswers kb' bf fuel q' w').
  Proof.
    intros Hf Hb Hq Hkey Hw. unfold canswers.
    eapply rrel_bind.
    - apply (proj1 (csolve_sim fuel) V); try eassumption.
      + constructor; assumption.
      + apply sims_nil.
      + apply (kvalid_ret V Go).
    - intros [[a w1] sg] [[a' w1'] sg'] (R1 & R2 & R3 & R4). cbn.
      split; [exact R1|split; [exact R2|exact R4]].
  Qed.
End Search.

Definition names_ignored (s s' : subst) : Prop := sims vtop s s'.

Definition answers_rel (x x' : list subst * world) : Prop :=
  Forall2 names_ignored (fst x) (fst x') /\ wsim (snd x) (snd x').

Lemma mapn_id : forall t, mapn (fun x => x) t = t.
Proof.
  induction t as [| |a0|f0|z0|id0 nm0|ts Hts|a n c tv IHa IHn|nm args Hargs] using term_ind';
    cbn [mapn]; try reflexivity.
  - now rewrite (map_ext_Forall _ (fun x => x) Hts), map_id.
  - now rewrite IHa, IHn.
  - now rewrite (map_ext_Forall _ (fun x => x) Hargs), map_id.
Qed.

(* reflexivity: the identity renaming *)
Lemma sim_refl (V : vrel) t : okt t = true -> (forall id a, In (id, a) (tvars t) -> V id a a) -> sim V t t.
Proof. intros Hok Hc. rewrite <- (mapn_id t) at 2. apply sim_mapn; assumption. Qed.

Lemma sim_top_refl t : okt t = true -> sim vtop t t.
Proof. intro H. apply sim_refl; [exact H|]. intros; exact I. Qed.

(* the query's own variables: ids at most the counter, an id has one name *)
Definition query_ok (q : term) (ctr : N) : Prop :=
  okt q = true /\ consistent (tvars q) /\ (forall id a, In (id, a) (tvars q) -> id <= ctr).

(* the search of a query starts from the query's own (id, name, name) triples *)
Lemma query_vrel q ctr : query_ok q ctr -> exists V, vfun V /\ vbound V ctr /\ sim V q q.
Proof.
  intros (Hq & Hc & Hb). exists (fun id a b => In (id, a) (tvars q) /\ b = a). split; [|split].
  - intros id a b a' b' [H1 E1] [H2 E2].
    assert (a = a') as -> by (apply (Hc _ _ _ _ H1 H2); reflexivity). subst. auto.
  - intros id a b [H _]. eapply Hb; eauto.
  - apply sim_refl; [exact Hq|]. intros id a Hin. split; auto.
Qed.

Lemma make_query_ok terms q ctr : forallb okt terms = true -> make_query terms = Ok (GCall q, ctr) ->
  query_ok q ctr.
Proof.
  intros Ht Hm. destruct (make_query_spec _ _ _ Hm) as (ts' & E & He & Hc & Hfr). inversion E; subst q.
  split; [|split].
  - cbn [okt]. now rewrite <- okts_erase, He, okts_erase.
  - exact Hc.
  - intros id a Hin. apply (Hfr _ _ Hin).
Qed.

Theorem canswers_renamed kb kb' bf fuel q w :
  kb_renamed kb kb' -> okkb kb = true -> query_ok q (next_id w) ->
  rrel answers_rel (canswers kb bf fuel q w) (canswers kb' bf fuel q w).
Proof.
  intros Hkb Hok Hq. destruct (query_vrel _ _ Hq) as (V0 & Hf & Hbd & Hs).
  pose proof (canswers_sim kb kb' bf Hkb Hok V0 fuel q q w w Hf Hbd Hs eq_refl (wsim_refl w)) as H.
  eapply rrel_mono; [|exact H].
  intros [a w1] [a' w1'] (R1 & R2 & R3). split; [|exact R2]. cbn [fst snd] in *.
  eapply Forall2_mono; [|exact R1]. intros s s' (V' & _ & _ & _ & S). eapply sims_mono; [apply vle_top|exact S].
Qed.

Lemma sim_erased V (e : str -> str) : (forall a b, e a = e b) ->
  forall t t', sim V t t' -> mapn e t = mapn e t'.
Proof.
  intros He t t' H. induction H as [| |s|f|z|id a b Hv|ts ts' HF IH|a a' n n' c tv Ha IHa Hn IHn|name args args' Hj HF IH]
    using sim_ind2; cbn [mapn]; try reflexivity.
  - f_equal. apply He.
  - f_equal. apply Forall2_map_eq, IH.
  - now rewrite IHa, IHn.
  - f_equal. apply Forall2_map_eq, IH.
Qed.

Lemma sims_erased V (e : str -> str) : (forall a b, e a = e b) ->
  forall s s', sims V s s' -> map (option_map (mapn e)) s = map (option_map (mapn e)) s'.
Proof.
  intros He s s' H. apply Forall2_map_eq. eapply Forall2_mono; [|exact H].
  intros [x|] [y|] Hxy; cbn in *; try contradiction; [|reflexivity]. f_equal. eapply sim_erased; eauto.
Qed.

(* C18, goal and rule level: `tokenize`, `generate_goal` and `parse_rule` return a value or
   an error for every string - never Panic, never OutOfFuel once the fuel exceeds an
   explicit bound in the length of the string.  The leaf parsers are only asked about texts
   that are not longer than the input (each is the trimmed form of a slice of it), so the
   theorems compose with a fuel-bounded model of the leaf parsers.

   The panics that remain in the Rust code of the grouping passes and of
   `token_tree_to_goal` ("Group should have 1 child", "Leaf token must be Subgoal",
   `get_token_str` on a branch ...) are shown UNREACHABLE from `generate_goal`: the token
   list that `tokenize` produces has the shape `TOKS`, `group_tokens` turns such a list into
   a `raw` tree, the And/Or passes turn a raw tree into a `ready` tree, and
   `token_tree_to_goal` is total on ready trees.  All these shapes carry the bound `n` on
   the length of the leaf texts. *)
From Coq Require Import Lia.
From Suiron Require Import Model.Tokenizer Model.ParseRule Proofs.TokenizerStream.
From Suiron Require Proofs.ReaderProofs.
Open Scope N_scope.

Definition finishes {A} (r : res (presult A)) : Prop :=
  match r with Ok _ => True | _ => False end.

Lemma finishes_inv {A} (r : res (presult A)) :
  finishes r -> (exists v, r = Ok (POk v)) \/ r = Ok PErr.
Proof. destruct r as [[v|]| |]; simpl; intros H; try contradiction; eauto. Qed.

Definition returns {A} (r : res (presult A)) : Prop :=
  (exists v, r = Ok (POk v)) \/ r = Ok PErr.

Lemma returns_finishes {A} (r : res (presult A)) : returns r <-> finishes r.
Proof.
  split; [intros [(v & ->)| ->]; exact I | apply finishes_inv].
Qed.

Section token_ind'.
  Variable P : token -> Prop.
  Hypothesis HLeaf : forall ty s, P (Leaf ty s).
  Hypothesis HBranch : forall ty cs, Forall P cs -> P (Branch ty cs).
  Fixpoint token_ind' (t : token) : P t :=
    match t with
    | Leaf ty s => HLeaf ty s
    | Branch ty cs =>
        HBranch ty cs ((fix go (l : list token) : Forall P l :=
                          match l with
                          | [] => Forall_nil P
                          | x :: l' => Forall_cons x (token_ind' x) (go l')
                          end) cs)
    end.
End token_ind'.

Lemma forallb_snoc {A} (f : A -> bool) l x :
  forallb f (l ++ [x]) = forallb f l && f x.
Proof. rewrite forallb_app. simpl. now rewrite andb_true_r. Qed.

Lemma existsb_snoc {A} (f : A -> bool) l x : existsb f (l ++ [x]) = existsb f l || f x.
Proof. rewrite existsb_app. simpl. now rewrite orb_false_r. Qed.

Lemma snoc_ne {A} (l : list A) x : l ++ [x] <> [].
Proof. destruct l; discriminate. Qed.

Lemma forallb_skipn {A} (f : A -> bool) k : forall l, forallb f l = true -> forallb f (skipn k l) = true.
Proof.
  induction k as [|k IH]; intros l H; [exact H|].
  destruct l as [|t l]; [reflexivity|]. simpl in *. apply andb_true_iff in H as [_ H]. now apply IH.
Qed.

Lemma forallb_filter {A} (f g : A -> bool) l : forallb f l = true -> forallb f (filter g l) = true.
Proof.
  induction l as [|x l IH]; intros H; [reflexivity|]. cbn in *.
  apply andb_true_iff in H as [H1 H2]. destruct (g x); cbn; rewrite ?H1; auto.
Qed.

(* `tk_trim` is `rd_trim` of Model/Reader.v, letter for letter *)
Lemma trim_start_all_ws w : forallb tk_is_whitespace w = true -> tk_trim_start w = [].
Proof. exact (ReaderProofs.trim_start_all_ws w). Qed.

Lemma trim_all_ws w : forallb tk_is_whitespace w = true -> tk_trim w = [].
Proof. exact (ReaderProofs.trim_all_ws w). Qed.

Lemma trim_start_keeps c w :
  In c w -> tk_is_whitespace c = false -> In c (tk_trim_start w).
Proof.
  induction w as [|x w IH]; cbn [In tk_trim_start]; [tauto|].
  intros [->|Hin] Hc.
  - rewrite Hc. now left.
  - destruct (tk_is_whitespace x); [now apply IH | now right].
Qed.

Lemma trim_keeps c w : In c w -> tk_is_whitespace c = false -> In c (tk_trim w).
Proof.
  intros Hin Hc. unfold tk_trim. apply -> in_rev.
  apply trim_start_keeps; [|exact Hc]. apply -> in_rev. now apply trim_start_keeps.
Qed.

Lemma trim_start_length w : (length (tk_trim_start w) <= length w)%nat.
Proof.
  induction w as [|c w IH]; cbn [tk_trim_start length]; [lia|].
  destruct (tk_is_whitespace c); cbn [length]; lia.
Qed.

Lemma trim_length w : (length (tk_trim w) <= length w)%nat.
Proof.
  unfold tk_trim. rewrite rev_length.
  etransitivity; [apply trim_start_length|]. rewrite rev_length. apply trim_start_length.
Qed.

Definition slice_ty (w : str) : token_type := get_type (make_leaf_token w).

Definition symb (c : N) : bool :=
  (c =? ch_comma) || (c =? ch_semicolon) || (c =? ch_lparen) || (c =? ch_rparen).
Definition hardb (c : N) : bool := negb (tk_is_whitespace c) && negb (symb c).

Lemma slice_ty_cases w :
  (slice_ty w = TTSubgoal) \/
  (exists c, tk_trim w = [c] /\ symb c = true /\
             slice_ty w = (if c =? ch_comma then TTComma else if c =? ch_semicolon then TTSemicolon
                           else if c =? ch_lparen then TTLParen else TTRParen)).
Proof.
  unfold slice_ty, make_leaf_token.
  destruct (str_eqb (tk_trim w) [ch_comma]) eqn:E1.
  { right. apply str_eqb_eq in E1. exists ch_comma. rewrite E1. now repeat split. }
  destruct (str_eqb (tk_trim w) [ch_semicolon]) eqn:E2.
  { right. apply str_eqb_eq in E2. exists ch_semicolon. rewrite E2. now repeat split. }
  destruct (str_eqb (tk_trim w) [ch_lparen]) eqn:E3.
  { right. apply str_eqb_eq in E3. exists ch_lparen. rewrite E3. now repeat split. }
  destruct (str_eqb (tk_trim w) [ch_rparen]) eqn:E4.
  { right. apply str_eqb_eq in E4. exists ch_rparen. rewrite E4. now repeat split. }
  now left.
Qed.

Lemma slice_fresh w : forallb tk_is_whitespace w = true -> slice_ty w = TTSubgoal.
Proof.
  intros H. destruct (slice_ty_cases w) as [E|(c & Et & _)]; [exact E|].
  rewrite (trim_all_ws w H) in Et. discriminate.
Qed.

Lemma slice_dirty w : existsb hardb w = true -> slice_ty w = TTSubgoal.
Proof.
  intros H. apply existsb_exists in H as (c & Hin & Hh).
  apply andb_true_iff in Hh as [Hw Hs]. apply negb_true_iff in Hw, Hs.
  destruct (slice_ty_cases w) as [E|(c' & Et & Hs' & _)]; [exact E|].
  pose proof (trim_keeps c w Hin Hw) as Hk. rewrite Et in Hk.
  destruct Hk as [->|[]]. congruence.
Qed.

Lemma slice_post w :
  existsb (N.eqb ch_rparen) w = true -> slice_ty w = TTSubgoal \/ slice_ty w = TTRParen.
Proof.
  intros H. apply existsb_exists in H as (c & Hin & Hc). apply N.eqb_eq in Hc. subst c.
  destruct (slice_ty_cases w) as [E|(c' & Et & Hs' & E)]; [now left|].
  assert (Hk : In ch_rparen (tk_trim w)) by (apply trim_keeps; [exact Hin | reflexivity]).
  rewrite Et in Hk. destruct Hk as [->|[]]. right. exact E.
Qed.

Lemma make_leaf_token_symbols :
  get_type (make_leaf_token [ch_lparen]) = TTLParen /\
  get_type (make_leaf_token [ch_rparen]) = TTRParen /\
  get_type (make_leaf_token [ch_comma]) = TTComma /\
  get_type (make_leaf_token [ch_semicolon]) = TTSemicolon.
Proof. vm_compute. repeat split. Qed.

Lemma lnh_range c : letter_number_hyphen c = true ->
  45 <= c <= 122 \/ 173 <= c < 1296.
Proof.
  unfold letter_number_hyphen, ch_underscore, ch_hyphen. intros H.
  repeat match type of H with
         | (if ?b then _ else _) = true => destruct b eqn:?
         end; try discriminate;
    repeat match goal with
           | H : (_ && _) = true |- _ => apply andb_true_iff in H as [? ?]
           | H : (_ || _) = true |- _ => apply orb_true_iff in H as [H|H]
           | H : (_ <=? _) = true |- _ => apply N.leb_le in H
           | H : (_ <? _) = true |- _ => apply N.ltb_lt in H
           | H : (_ =? _) = true |- _ => apply N.eqb_eq in H
           end; lia.
Qed.

(* `tk_is_whitespace` and `rd_is_ws` (Model/Reader.v) are the same function, char::is_whitespace *)
Lemma ws_not_lnh c : tk_is_whitespace c = true ->
  letter_number_hyphen c = false /\ (c =? ch_backslash) = false.
Proof.
  intros H. split.
  - destruct (letter_number_hyphen c) eqn:E; [|reflexivity].
    apply lnh_range in E. pose proof (ReaderProofs.ws_coarse c H). lia.
  - apply N.eqb_neq. intros ->. discriminate.
Qed.

Lemma no_esc_true c m p : no_esc c m p = true -> c = m /\ (p =? ch_backslash) = false.
Proof.
  unfold no_esc. destruct (p =? ch_backslash); [discriminate|].
  destruct (c =? m) eqn:E; [|discriminate]. apply N.eqb_eq in E. auto.
Qed.

Lemma no_esc_false c m p : no_esc c m p = false -> (p =? ch_backslash) = false -> c <> m.
Proof.
  unfold no_esc. intros H Hp. rewrite Hp in H.
  destruct (c =? m) eqn:E; [discriminate|]. now apply N.eqb_neq.
Qed.

(* The shape of a token list that makes the grouping passes safe.  `startok`: a token that may
   begin a group, a Subgoal or a left parenthesis.  `lp_followed l`: every left-parenthesis
   token of l is followed by such a token; together with `lastty l <> TTLParen` no group is
   empty and each begins with an operand, so the Or pass leaves a group exactly one child
   ("Group should have 1 child" is unreachable).  `first_ok`: l itself begins that way.
   `pend l`: l is empty or ends with a left parenthesis - the slice being read will be the
   first token of a group and has to become a Subgoal. *)
Definition is_lp (t : token) : bool := tt_eqb (get_type t) TTLParen.
Definition startok (t : token) : bool :=
  tt_eqb (get_type t) TTSubgoal || tt_eqb (get_type t) TTLParen.

Fixpoint lp_followed (l : list token) : Prop :=
  match l with
  | t1 :: ((t2 :: _) as r) => (is_lp t1 = true -> startok t2 = true) /\ lp_followed r
  | _ => True
  end.

Definition lastty (l : list token) : token_type :=
  match rev l with [] => TTEmpty | t :: _ => get_type t end.

Definition first_ok (l : list token) : Prop :=
  match l with [] => True | t :: _ => startok t = true end.

Lemma lastty_snoc l x : lastty (l ++ [x]) = get_type x.
Proof. unfold lastty. now rewrite rev_app_distr. Qed.

Lemma lastty_cons t l : l <> [] -> lastty (t :: l) = lastty l.
Proof.
  intros Hne. unfold lastty. simpl.
  destruct (rev l) as [|y r] eqn:E.
  - exfalso. apply Hne. apply (f_equal (@rev token)) in E. now rewrite rev_involutive in E.
  - reflexivity.
Qed.

Lemma lp_followed_snoc l x :
  lp_followed l -> (lastty l = TTLParen -> startok x = true) -> lp_followed (l ++ [x]).
Proof.
  induction l as [|t1 l IH]; intros Hc Hl; [exact I|].
  destruct l as [|t2 l].
  - simpl. split; [|exact I]. intros H. apply Hl. unfold lastty; simpl.
    unfold is_lp in H. destruct (get_type t1); try discriminate; reflexivity.
  - destruct Hc as [H1 H2]. change ((t1 :: t2 :: l) ++ [x]) with (t1 :: (t2 :: l) ++ [x]).
    simpl. split; [exact H1|]. apply IH; [exact H2|].
    intros H. apply Hl. rewrite lastty_cons by discriminate. exact H.
Qed.

Lemma first_ok_snoc l x : first_ok l -> (l = [] -> startok x = true) -> first_ok (l ++ [x]).
Proof. destruct l; simpl; auto. Qed.

Lemma lp_followed_tail t l : lp_followed (t :: l) -> lp_followed l.
Proof. destruct l; simpl; tauto. Qed.

Definition pend (toks : list token) : bool :=
  match rev toks with [] => true | t :: _ => is_lp t end.

Lemma pend_snoc l x : pend (l ++ [x]) = is_lp x.
Proof. unfold pend. now rewrite rev_app_distr. Qed.

Lemma lastty_pend l : lastty l = TTLParen -> pend l = true.
Proof.
  unfold lastty, pend, is_lp. destruct (rev l) as [|t r]; [discriminate|]. intros ->. reflexivity.
Qed.

Lemma pend_lastty l : pend l = true -> l = [] \/ lastty l = TTLParen.
Proof.
  unfold lastty, pend, is_lp. destruct (rev l) as [|t r] eqn:E.
  - intros _. left. apply (f_equal (@rev token)) in E. now rewrite rev_involutive in E.
  - intros H. right. destruct (get_type t); try discriminate; reflexivity.
Qed.

(* the state of the current slice: fresh (only white space since the last reset, and the
   scanner is in its ground state), dirty (holds a character that cannot be trimmed away
   nor be a lone symbol), post (holds a right parenthesis) *)

Definition freshb (w : str) (stk : parse_stack) (prev : N) : bool :=
  forallb tk_is_whitespace w && negb (tt_eqb (peek stk) TTComplex) &&
  negb (tt_eqb (peek stk) TTLinkedList) && negb (prev =? ch_backslash) &&
  negb (letter_number_hyphen prev).
Definition dirtyb (w : str) : bool := existsb hardb w.
Definition postb (w : str) : bool := existsb (N.eqb ch_rparen) w.

Lemma dirtyb_app w x : dirtyb w = true -> dirtyb (w ++ x) = true.
Proof. unfold dirtyb. rewrite existsb_app. intros ->. reflexivity. Qed.

Lemma dirtyb_app_r w x : dirtyb x = true -> dirtyb (w ++ x) = true.
Proof. unfold dirtyb. rewrite existsb_app. intros ->. apply orb_true_r. Qed.

Lemma postb_app w x : postb w = true -> postb (w ++ x) = true.
Proof. unfold postb. rewrite existsb_app. intros ->. reflexivity. Qed.

Lemma postb_app_r w x : postb x = true -> postb (w ++ x) = true.
Proof. unfold postb. rewrite existsb_app. intros ->. apply orb_true_r. Qed.

Definition stk_step (stk stk' : parse_stack) : Prop :=
  stk' = stk \/ stk' = TTComplex :: stk \/ stk' = TTLinkedList :: stk \/
  stk = TTComplex :: stk' \/ stk = TTLinkedList :: stk'.

Lemma stk_step_group stk stk' : stk_step stk stk' -> In TTGroup stk -> In TTGroup stk'.
Proof.
  intros [E|[E|[E|[E|E]]]] H; subst; simpl in *; auto.
  - destruct H as [H|H]; [discriminate|exact H].
  - destruct H as [H|H]; [discriminate|exact H].
Qed.

(* what one iteration does, as one of four events: the slice grows by the characters x that
   are consumed; a left parenthesis opens a group; a right parenthesis closes one; a comma or
   semicolon separates.  The last two emit the slice and the symbol as tokens. *)
Inductive event (c : N) (rest' w : str) (prev : N) (stk : parse_stack) (toks : list token)
  : scfg -> Prop :=
| EvGrow rest'' x ch stk' :
    c :: rest' = x ++ rest'' -> x <> [] -> stk_step stk stk' ->
    (freshb w stk prev = true -> freshb (w ++ x) stk' ch = true \/ dirtyb x = true) ->
    event c rest' w prev stk toks (mkS rest'' (w ++ x) ch stk' toks)
| EvOpen :
    event c rest' w prev stk toks
          (mkS rest' [] ch_lparen (TTGroup :: stk) (toks ++ [make_leaf_token [ch_lparen]]))
| EvClose stk' :
    stk = TTGroup :: stk' ->
    event c rest' w prev stk toks
          (mkS rest' (w ++ [ch_rparen]) ch_rparen stk'
               (toks ++ [make_leaf_token w] ++ [make_leaf_token [ch_rparen]]))
| EvSep sep :
    (sep = ch_comma \/ sep = ch_semicolon) ->
    tt_eqb (peek stk) TTComplex = false -> tt_eqb (peek stk) TTLinkedList = false ->
    event c rest' w prev stk toks
          (mkS rest' [] sep stk (toks ++ [make_leaf_token w] ++ [make_leaf_token [sep]])).

Lemma freshb_inv w stk prev : freshb w stk prev = true ->
  forallb tk_is_whitespace w = true /\ tt_eqb (peek stk) TTComplex = false /\
  tt_eqb (peek stk) TTLinkedList = false /\ (prev =? ch_backslash) = false /\
  letter_number_hyphen prev = false.
Proof.
  unfold freshb. intros H.
  repeat (apply andb_true_iff in H as [H ?]).
  repeat match goal with H : negb _ = true |- _ => apply negb_true_iff in H end.
  auto.
Qed.

Lemma freshb_intro w stk prev :
  forallb tk_is_whitespace w = true -> tt_eqb (peek stk) TTComplex = false ->
  tt_eqb (peek stk) TTLinkedList = false -> (prev =? ch_backslash) = false ->
  letter_number_hyphen prev = false -> freshb w stk prev = true.
Proof. unfold freshb. intros -> -> -> -> ->. reflexivity. Qed.

Lemma dirty_single c : hardb c = true -> dirtyb [c] = true.
Proof. unfold dirtyb; cbn [existsb]. intros ->. reflexivity. Qed.

Lemma sstep_event c rest' w prev stk toks cf' :
  sstep c rest' w prev stk toks = POk cf' -> event c rest' w prev stk toks cf'.
Proof.
  unfold sstep. intros H.
  destruct (no_esc c ch_quote prev) eqn:Eq.
  { (* quote: the slice grows by the quote (a hard character) and what is skipped *)
    apply no_esc_true in Eq as [-> Hb].
    destruct (quote_loop rest' 0 ch_hash ch_quote) as [[k|] ch'];
      inversion H; subst; clear H.
    - apply EvGrow; [exact (f_equal (cons ch_quote) (eq_sym (firstn_skipn (S k) rest'))) | discriminate | now left |].
      intros _. right. reflexivity.
    - apply EvGrow; [reflexivity | discriminate | now left |]. intros _. right. reflexivity. }
  destruct (no_esc c ch_lparen prev) eqn:El.
  { apply no_esc_true in El as [-> Hb].
    destruct (letter_number_hyphen prev) eqn:Eh; inversion H; subst; clear H.
    - apply EvGrow; [reflexivity | discriminate | right; now left |].
      intros Hf. apply freshb_inv in Hf as (_ & _ & _ & _ & Hf). congruence.
    - apply EvOpen. }
  destruct (no_esc c ch_rparen prev) eqn:Er.
  { apply no_esc_true in Er as [-> Hb].
    destruct (tt_eqb (peek stk) TTEmpty) eqn:Ee; [discriminate|].
    destruct stk as [|top stk']; [discriminate|]. cbn [pop] in H.
    destruct (tt_eqb top TTGroup) eqn:Eg.
    - inversion H; subst; clear H.
      destruct top; try discriminate. now apply EvClose.
    - destruct (negb (tt_eqb top TTComplex)) eqn:Ec; [discriminate|].
      inversion H; subst; clear H. apply negb_false_iff in Ec.
      destruct top; try discriminate.
      apply EvGrow; [reflexivity | discriminate | right; right; right; now left |].
      intros Hf. apply freshb_inv in Hf as (_ & Hf & _). discriminate. }
  destruct (no_esc c ch_lbracket prev) eqn:Elb.
  { apply no_esc_true in Elb as [-> Hb]. inversion H; subst; clear H.
    apply EvGrow; [reflexivity | discriminate | right; right; now left |].
    intros _. right. reflexivity. }
  destruct (no_esc c ch_rbracket prev) eqn:Erb.
  { apply no_esc_true in Erb as [-> Hb].
    destruct (tt_eqb (peek stk) TTEmpty) eqn:Ee; [discriminate|].
    destruct stk as [|top stk']; [discriminate|]. cbn [pop] in H.
    destruct (negb (tt_eqb top TTLinkedList)) eqn:Ec; [discriminate|].
    inversion H; subst; clear H. apply negb_false_iff in Ec.
    destruct top; try discriminate.
    apply EvGrow; [reflexivity | discriminate | right; right; right; now right |].
    intros Hf. apply freshb_inv in Hf as (_ & _ & Hf & _). discriminate. }
  destruct (negb (tt_eqb (peek stk) TTComplex) && negb (tt_eqb (peek stk) TTLinkedList)) eqn:Et.
  2:{ inversion H; subst; clear H.
      apply EvGrow; [reflexivity | discriminate | now left |].
      intros Hf. apply freshb_inv in Hf as (_ & H1 & H2 & _). rewrite H1, H2 in Et. discriminate. }
  apply andb_true_iff in Et as [Et1 Et2]. apply negb_true_iff in Et1, Et2.
  destruct (invalid_between_terms c) eqn:Ei; [discriminate|].
  destruct (no_esc c ch_comma prev) eqn:Ec.
  { apply no_esc_true in Ec as [-> Hb]. inversion H; subst; clear H. apply EvSep; auto. }
  destruct (no_esc c ch_semicolon prev) eqn:Es.
  { apply no_esc_true in Es as [-> Hb]. inversion H; subst; clear H. apply EvSep; auto. }
  inversion H; subst; clear H.
  apply EvGrow; [reflexivity | discriminate | now left |].
  intros Hf. apply freshb_inv in Hf as (Hw & H1 & H2 & Hb & Hl).
  destruct (tk_is_whitespace c) eqn:Ews.
  - left. destruct (ws_not_lnh c Ews) as (A & B).
    apply freshb_intro; auto. rewrite forallb_app, Hw. cbn [forallb andb]. now rewrite Ews.
  - right. apply dirty_single. unfold hardb. rewrite Ews. cbn [negb andb].
    apply negb_true_iff. unfold symb.
    pose proof (no_esc_false _ _ _ Ec Hb). pose proof (no_esc_false _ _ _ Es Hb).
    pose proof (no_esc_false _ _ _ El Hb). pose proof (no_esc_false _ _ _ Er Hb).
    repeat (apply orb_false_iff; split); now apply N.eqb_neq.
Qed.

Lemma grow_length c (rest' x rest'' : str) : c :: rest' = x ++ rest'' -> x <> [] ->
  (length x + length rest'' = S (length rest') /\ length rest'' <= length rest')%nat.
Proof.
  intros E Hx. apply (f_equal (@length N)) in E. rewrite app_length in E. cbn [length] in E.
  destruct x; [congruence|]. cbn [length] in *. lia.
Qed.

Lemma sstep_shrinks c rest' w p stk toks cf' :
  sstep c rest' w p stk toks = POk cf' ->
  (length (s_rest cf') <= length rest')%nat /\
  (length (s_toks cf') <= length toks + 2)%nat.
Proof.
  intros H. destruct (sstep_event _ _ _ _ _ _ _ H) as [rest'' x ch stk' E Hx _ _| |stk' _|sep _ _ _];
    cbn [s_rest s_toks]; rewrite ?app_length; cbn [length]; try lia.
  destruct (grow_length _ _ _ _ E Hx). lia.
Qed.

Lemma sloop_total : forall fuel cf,
  (length (s_rest cf) < fuel)%nat -> exists r, sloop fuel cf = Ok r.
Proof.
  induction fuel as [|fuel IH]; intros cf Hf; [lia|]. simpl.
  unfold sstep_cfg. destruct (s_rest cf) as [|c rest'] eqn:Er.
  - eauto.
  - destruct (sstep c rest' (s_w cf) (s_prev cf) (s_stk cf) (s_toks cf)) as [cf'|] eqn:Es.
    + apply sstep_shrinks in Es as [Es _]. apply IH. simpl in Hf. lia.
    + eauto.
Qed.

Lemma sloop_invariant (P : scfg -> Prop) :
  (forall c rest' w prev stk toks cf',
     P (mkS (c :: rest') w prev stk toks) -> sstep c rest' w prev stk toks = POk cf' -> P cf') ->
  forall fuel cf cf', P cf -> sloop fuel cf = Ok (POk cf') -> P cf' /\ s_rest cf' = [].
Proof.
  intros Hstep. induction fuel as [|fuel IH]; intros cf cf' HP H; [discriminate|]. simpl in H.
  unfold sstep_cfg in H. destruct cf as [rest w prev stk toks]. cbn [s_rest s_w s_prev s_stk s_toks] in H.
  destruct rest as [|c rest'].
  - inversion H; subst. auto.
  - destruct (sstep c rest' w prev stk toks) as [cf1|] eqn:Es; [|discriminate].
    apply IH in H; [exact H|]. exact (Hstep _ _ _ _ _ _ _ HP Es).
Qed.

Lemma stokenize_invariant (P : scfg -> Prop) fuel s T :
  (forall c rest' w prev stk toks cf',
     P (mkS (c :: rest') w prev stk toks) -> sstep c rest' w prev stk toks = POk cf' -> P cf') ->
  P (mkS (tk_trim s) [] ch_hash [] []) -> stokenize fuel s = Ok (POk T) ->
  exists cf, P cf /\ s_rest cf = [] /\ s_stk cf = [] /\ tk_trim s <> [] /\
    T = match s_w cf with [] => s_toks cf | w => s_toks cf ++ [make_leaf_token w] end.
Proof.
  intros Hstep H0. unfold stokenize. destruct (tk_trim s) as [|c0 chrs]; [discriminate|].
  destruct (sloop fuel (mkS (c0 :: chrs) [] ch_hash [] [])) as [[cf|]| |] eqn:El;
    cbn [bind]; try discriminate.
  destruct (sloop_invariant P Hstep _ _ _ H0 El) as [HP Hr].
  destruct (s_stk cf) eqn:Es; [|discriminate]. intros H. exists cf.
  repeat split; try assumption; [discriminate|]. destruct (s_w cf); now inversion H.
Qed.

Lemma stokenize_length fuel s T :
  stokenize fuel s = Ok (POk T) -> (length T <= 2 * length s + 1)%nat.
Proof.
  intros H. pose proof (trim_length s) as Hl.
  destruct (stokenize_invariant
              (fun cf => length (s_toks cf) + 2 * length (s_rest cf) <= 2 * length s)%nat fuel s T)
    as (cf & HP & Hr & _ & _ & ->); [|cbn [s_toks s_rest length]; lia|exact H|].
  - intros c rest' w prev stk toks cf' HP Es. apply sstep_shrinks in Es. cbn [s_toks s_rest length] in HP. lia.
  - rewrite Hr in HP. destruct (s_w cf); rewrite ?app_length; cbn [length] in *; lia.
Qed.

(* the nested loops of group_and_tokens and token_tree_to_goal (anonymous fixpoints in
   Model/Tokenizer.v) as functions of their own *)

Section Loops.
  Variable gat : token -> res token.           (* group_and_tokens, for the children *)
  Variable token_type : token_type.
  Fixpoint and_loop (children new_children and_list : list token) : res token :=
    match children with
    | [] =>
        let size := length and_list in
        do new_children <-
           (if (size =? 1)%nat then
              match nth_error and_list 0 with
              | Some t => Ok (new_children ++ [t])
              | None => Panic
              end
            else if (1 <? size)%nat then
              do t <- make_branch_token TTAnd and_list; Ok (new_children ++ [t])
            else Ok new_children);
        make_branch_token token_type new_children
    | child :: rest =>
        let child_type := get_type child in
        if tt_eqb child_type TTSubgoal then and_loop rest new_children (and_list ++ [child])
        else if tt_eqb child_type TTComma then and_loop rest new_children and_list
        else if tt_eqb child_type TTSemicolon then
          let size := length and_list in
          do t <- (if (size =? 1)%nat then
                     match nth_error and_list 0 with Some t => Ok t | None => Panic end
                   else make_branch_token TTAnd and_list);
          and_loop rest (new_children ++ [t] ++ [child]) []
        else if tt_eqb child_type TTGroup then
          do t <- gat child;
          do t <- group_or_tokens t;
          and_loop rest new_children (and_list ++ [t])
        else and_loop rest new_children and_list
    end.
End Loops.

Lemma group_and_tokens_branch ty cs :
  group_and_tokens (Branch ty cs) = and_loop group_and_tokens ty cs [] [].
Proof. reflexivity. Qed.

Section OpLoop.
  Variable parse_subgoal : str -> res (presult goal).
  Variable tttg : token -> res (presult goal).
  Variable and_too : bool.
  Fixpoint ops_loop (children : list token) (operands : list goal) : res (presult (list goal)) :=
    match children with
    | [] => Ok (POk operands)
    | child :: rest =>
        let child_type := get_type child in
        if tt_eqb child_type TTSubgoal then
          do s <- get_token_str child;
          do r <- parse_subgoal s;
          match r with
          | POk g => ops_loop rest (operands ++ [g])
          | PErr => Ok PErr
          end
        else if tt_eqb child_type TTGroup || (and_too && tt_eqb child_type TTAnd) then
          do r <- tttg child;
          match r with
          | POk g => ops_loop rest (operands ++ [g])
          | PErr => Ok PErr
          end
        else ops_loop rest operands
    end.
End OpLoop.

Lemma tttg_branch ps ty cs :
  token_tree_to_goal ps (Branch ty cs) =
  if tt_eqb ty TTAnd then
    do r <- ops_loop ps (token_tree_to_goal ps) false cs [];
    match r with POk operands => Ok (POk (GOp OAnd operands)) | PErr => Ok PErr end
  else if tt_eqb ty TTOr then
    do r <- ops_loop ps (token_tree_to_goal ps) true cs [];
    match r with POk operands => Ok (POk (GOp OOr operands)) | PErr => Ok PErr end
  else if tt_eqb ty TTGroup then
    match cs with [child] => token_tree_to_goal ps child | _ => Panic end
  else Ok PErr.
Proof. reflexivity. Qed.

Definition orsel (c : token) : bool :=
  tt_eqb (get_type c) TTSubgoal || tt_eqb (get_type c) TTAnd || tt_eqb (get_type c) TTGroup.

Definition valid_branch (ty : token_type) : bool :=
  tt_eqb ty TTAnd || tt_eqb ty TTOr || tt_eqb ty TTGroup.

Lemma make_branch_token_ok ty cs : valid_branch ty = true -> make_branch_token ty cs = Ok (Branch ty cs).
Proof. unfold make_branch_token, valid_branch. destruct ty; try discriminate; reflexivity. Qed.

Lemma group_or_tokens_branch ty cs :
  valid_branch ty = true ->
  group_or_tokens (Branch ty cs) =
  Ok (Branch ty (match filter orsel cs with
                 | [] => []
                 | [x] => [x]
                 | l => [Branch TTOr l]
                 end)).
Proof.
  intros Hv. unfold group_or_tokens.
  assert (Hl : forall cs acc,
    (fix loop (children or_list : list token) {struct children} : list token :=
       match children with
       | [] => or_list
       | child :: rest =>
           if tt_eqb (get_type child) TTSubgoal || tt_eqb (get_type child) TTAnd ||
              tt_eqb (get_type child) TTGroup
           then loop rest (or_list ++ [child]) else loop rest or_list
       end) cs acc = acc ++ filter orsel cs).
  { clear. induction cs as [|c cs IH]; intros acc; simpl; [now rewrite app_nil_r|].
    unfold orsel at 1. destruct (tt_eqb (get_type c) TTSubgoal || tt_eqb (get_type c) TTAnd ||
                                 tt_eqb (get_type c) TTGroup).
    - rewrite IH, <- app_assoc. reflexivity.
    - apply IH. }
  rewrite Hl. simpl app.
  destruct (filter orsel cs) as [|x [|y l]]; simpl; now rewrite make_branch_token_ok.
Qed.

(* from here on n bounds the length of every leaf text *)

Section Bound.
Variable n : nat.

Definition leaf_ty (ty : token_type) : bool :=
  match ty with
  | TTSubgoal | TTComma | TTSemicolon | TTLParen | TTRParen => true
  | _ => false
  end.

Definition leafb (t : token) : bool :=
  match t with Leaf ty s => leaf_ty ty && (length s <=? n)%nat | Branch _ _ => false end.

Lemma make_leaf_token_leafb w : (length w <= n)%nat -> leafb (make_leaf_token w) = true.
Proof.
  intros H. pose proof (trim_length w) as Ht. unfold make_leaf_token.
  repeat match goal with |- context [if ?b then _ else _] => destruct b end;
    cbn [leafb leaf_ty andb]; apply Nat.leb_le; lia.
Qed.

Definition fresh_or_dirty (w : str) (stk : parse_stack) (prev : N) : bool := freshb w stk prev || dirtyb w.

(* The loop invariant of tokenize.  inv_len: the bound n on the leaf texts.  inv_leaf: only leaves
   of the five leaf types ("Leaf token must be Subgoal", get_token_str on a branch).  inv_lp_followed,
   inv_first: see `lp_followed`.  inv_group: a trailing "(" has its Group on the stack, so the
   loop cannot end there with an empty stack (gives toks_last).  inv_slice: the slice is fresh,
   dirty or post, so its token is a Subgoal or, post, a right parenthesis - never `,` `;` `(`.
   inv_pend: right after "(" the slice is fresh or dirty, so the token after "(" is a Subgoal.
   inv_ne: something has been read or is left, so the final list is not empty. *)
Record Inv (cf : scfg) : Prop := mkInv {
  inv_len : (length (s_w cf) + length (s_rest cf) <= n)%nat;
  inv_leaf : forallb leafb (s_toks cf) = true;
  inv_lp_followed : lp_followed (s_toks cf);
  inv_first : first_ok (s_toks cf);
  inv_group : lastty (s_toks cf) = TTLParen -> In TTGroup (s_stk cf);
  inv_slice : fresh_or_dirty (s_w cf) (s_stk cf) (s_prev cf) || postb (s_w cf) = true;
  inv_pend : pend (s_toks cf) = true -> fresh_or_dirty (s_w cf) (s_stk cf) (s_prev cf) = true;
  inv_ne : s_toks cf <> [] \/ s_w cf <> [] \/ s_rest cf <> []
}.

Lemma fresh_or_dirty_slice w stk prev : fresh_or_dirty w stk prev = true -> slice_ty w = TTSubgoal.
Proof.
  unfold fresh_or_dirty. intros H. apply orb_true_iff in H as [H|H].
  - apply freshb_inv in H as (H & _). now apply slice_fresh.
  - now apply slice_dirty.
Qed.

Lemma slice_state_ty w stk prev :
  fresh_or_dirty w stk prev || postb w = true -> slice_ty w = TTSubgoal \/ slice_ty w = TTRParen.
Proof.
  intros H. apply orb_true_iff in H as [H|H].
  - left. eapply fresh_or_dirty_slice; eauto.
  - now apply slice_post.
Qed.

Lemma startok_of_ty t : get_type t = TTSubgoal \/ get_type t = TTLParen -> startok t = true.
Proof. unfold startok. intros [->| ->]; reflexivity. Qed.

Lemma fresh_reset stk c :
  tt_eqb (peek stk) TTComplex = false -> tt_eqb (peek stk) TTLinkedList = false ->
  (c = ch_lparen \/ c = ch_comma \/ c = ch_semicolon) -> fresh_or_dirty [] stk c = true.
Proof.
  intros H1 H2 Hc. unfold fresh_or_dirty. apply orb_true_iff. left.
  apply freshb_intro; auto; destruct Hc as [->|[->| ->]]; reflexivity.
Qed.

(* the slice and a symbol other than the left parenthesis are emitted as tokens *)
Lemma inv_emit c rest' w prev stk toks w' x stk' :
  Inv (mkS (c :: rest') w prev stk toks) ->
  is_lp (make_leaf_token [x]) = false ->
  (length w' + length rest' <= n)%nat -> fresh_or_dirty w' stk' x || postb w' = true ->
  Inv (mkS rest' w' x stk' (toks ++ [make_leaf_token w] ++ [make_leaf_token [x]])).
Proof.
  intros [In Il Ic If Ig I3 Ip _] Hx Hn H3. cbn [s_toks s_w s_stk s_prev s_rest length] in *.
  assert (Hstart : pend toks = true -> startok (make_leaf_token w) = true).
  { intros H. apply startok_of_ty. left. eapply fresh_or_dirty_slice. eauto. }
  rewrite app_assoc.
  constructor; cbn [s_toks s_w s_stk s_prev s_rest].
  - exact Hn.
  - rewrite !forallb_snoc, Il, !make_leaf_token_leafb by (cbn [length]; lia). reflexivity.
  - apply lp_followed_snoc; [apply lp_followed_snoc; [exact Ic|]|].
    + intros H. apply Hstart. now apply lastty_pend.
    + rewrite lastty_snoc. intros H.
      destruct (slice_state_ty _ _ _ I3) as [E|E]; unfold slice_ty in E; congruence.
  - apply first_ok_snoc; [apply first_ok_snoc; [exact If|]|].
    + intros ->. now apply Hstart.
    + intros H. now apply snoc_ne in H.
  - rewrite lastty_snoc. intros H. unfold is_lp in Hx. rewrite H in Hx. discriminate.
  - exact H3.
  - rewrite pend_snoc, Hx. discriminate.
  - left. apply snoc_ne.
Qed.

Lemma inv_step c rest' w prev stk toks cf' :
  Inv (mkS (c :: rest') w prev stk toks) -> event c rest' w prev stk toks cf' -> Inv cf'.
Proof.
  intros HI Ev.
  destruct Ev as [rest'' x ch stk' Hcons Hx Hstk Hfresh | | stk' Hstk | sep Hsep Hp1 Hp2].
  - destruct HI as [In Il Ic If Ig I3 Ip _]. cbn [s_toks s_w s_stk s_prev s_rest length] in *.
    assert (Hfd : fresh_or_dirty w stk prev = true -> fresh_or_dirty (w ++ x) stk' ch = true).
    { unfold fresh_or_dirty. intros H. apply orb_true_iff in H as [H|H].
      - destruct (Hfresh H) as [H'|H']; rewrite ?H'; [reflexivity|].
        rewrite (dirtyb_app_r w x H'). apply orb_true_r.
      - rewrite (dirtyb_app w x H). apply orb_true_r. }
    constructor; cbn [s_toks s_w s_stk s_prev s_rest]; auto.
    + destruct (grow_length _ _ _ _ Hcons Hx). rewrite app_length. lia.
    + intros H. eapply stk_step_group; eauto.
    + apply orb_true_iff in I3 as [H|H].
      * rewrite (Hfd H). reflexivity.
      * rewrite (postb_app w x H). apply orb_true_r.
    + right. left. destruct w; [destruct x; [congruence|discriminate]|discriminate].
  - destruct HI as [In Il Ic If Ig I3 Ip _]. cbn [s_toks s_w s_stk s_prev s_rest length] in *.
    pose proof make_leaf_token_symbols as (Elp & _).
    constructor; cbn [s_toks s_w s_stk s_prev s_rest length].
    + lia.
    + rewrite forallb_snoc, Il. apply make_leaf_token_leafb. cbn [length]. lia.
    + apply lp_followed_snoc; [exact Ic|]. intros _. apply startok_of_ty. now right.
    + apply first_ok_snoc; [exact If|]. intros _. apply startok_of_ty. now right.
    + intros _. now left.
    + rewrite fresh_reset by (auto; reflexivity). reflexivity.
    + intros _. apply fresh_reset; auto; reflexivity.
    + left. apply snoc_ne.
  - pose proof (inv_len _ HI) as In. cbn [s_w s_rest length] in In.
    apply (inv_emit _ _ _ _ _ _ _ _ _ HI); [reflexivity|rewrite app_length; cbn [length]; lia|].
    rewrite (postb_app_r w [ch_rparen]) by reflexivity. apply orb_true_r.
  - pose proof (inv_len _ HI) as In. cbn [s_w s_rest length] in In.
    apply (inv_emit _ _ _ _ _ _ _ _ _ HI); [destruct Hsep as [->| ->]; reflexivity|cbn [length]; lia|].
    rewrite fresh_reset by (auto; destruct Hsep; auto). reflexivity.
Qed.

Record TOKS (T : list token) : Prop := mkTOKS {
  toks_leaf : forallb leafb T = true;
  toks_lp_followed : lp_followed T;
  toks_first : first_ok T;
  toks_ne : T <> [];
  toks_last : lastty T <> TTLParen
}.

Theorem stokenize_TOKS fuel s T : (length s <= n)%nat -> stokenize fuel s = Ok (POk T) -> TOKS T.
Proof.
  intros Hn H. pose proof (trim_length s) as Hl.
  assert (Hne0 : tk_trim s <> []) by (intros E; unfold stokenize in H; rewrite E in H; discriminate).
  destruct (stokenize_invariant Inv fuel s T) as (cf & [In Il Ic If Ig I3 Ip Ine] & Hr & Hs & Hne & ->);
    [| |exact H|].
  - intros c rest' w prev stk toks cf' HI Es. exact (inv_step _ _ _ _ _ _ _ HI (sstep_event _ _ _ _ _ _ _ Es)).
  - constructor; cbn [s_toks s_w s_stk s_prev s_rest length]; try exact I; try reflexivity.
    + lia.
    + discriminate.
    + right; right; exact Hne0.
  - rewrite Hs in Ig.
    assert (Hlast : lastty (s_toks cf) <> TTLParen) by (intros E; exact (Ig E)).
    destruct (s_w cf) as [|x w] eqn:Ew.
    + constructor; auto. destruct Ine as [E|[E|E]]; congruence.
    + constructor.
      * rewrite forallb_snoc, Il. apply make_leaf_token_leafb. lia.
      * apply lp_followed_snoc; [exact Ic|]. intros E. contradiction.
      * apply first_ok_snoc; [exact If|]. intros E. apply startok_of_ty. left.
        eapply fresh_or_dirty_slice. apply Ip. rewrite E. reflexivity.
      * apply snoc_ne.
      * rewrite lastty_snoc. destruct (slice_state_ty _ _ _ I3) as [E|E]; unfold slice_ty in E; rewrite E; discriminate.
Qed.

(* group_tokens on such a list: a "raw" tree - every group has a first child that is a
   Subgoal leaf or a group, and only Subgoal / Comma / Semicolon leaves and groups below *)

Definition mid_leaf_ty (ty : token_type) : bool :=
  match ty with TTSubgoal | TTComma | TTSemicolon => true | _ => false end.
Definition solidb (c : token) : bool :=
  tt_eqb (get_type c) TTSubgoal || tt_eqb (get_type c) TTGroup.

Fixpoint rawb (t : token) : bool :=
  match t with
  | Branch TTGroup cs =>
      (match cs with c :: _ => solidb c | [] => false end) &&
      forallb (fun c => match c with
                        | Leaf ty s => mid_leaf_ty ty && (length s <=? n)%nat
                        | Branch _ _ => rawb c
                        end) cs
  | _ => false
  end.

Definition childok (c : token) : bool :=
  match c with Leaf ty s => mid_leaf_ty ty && (length s <=? n)%nat | Branch _ _ => rawb c end.

Lemma rawb_unfold cs :
  rawb (Branch TTGroup cs) =
  (match cs with c :: _ => solidb c | [] => false end) && forallb childok cs.
Proof. reflexivity. Qed.

Lemma rawb_group t : rawb t = true -> get_type t = TTGroup.
Proof. destruct t as [ty s|ty cs]; simpl; [discriminate|]. destruct ty; try discriminate. reflexivity. Qed.

(* what is left of a TOKS list after some tokens: the part of TOKS that `skipn` keeps *)
Record TOKS_suffix (l : list token) : Prop := mkTOKS_suffix {
  tok_leaf : forallb leafb l = true;
  tok_lp_followed : lp_followed l;
  tok_last : lastty l <> TTLParen
}.

Lemma lastty_skipn k : forall l, skipn k l <> [] -> lastty (skipn k l) = lastty l.
Proof.
  induction k as [|k IH]; intros l H; [reflexivity|].
  destruct l as [|t l]; [reflexivity|]. simpl in *.
  rewrite IH by exact H. symmetry. apply lastty_cons. intros ->. now rewrite skipn_nil in H.
Qed.

Lemma lp_followed_skipn k : forall l, lp_followed l -> lp_followed (skipn k l).
Proof.
  induction k as [|k IH]; intros l H; [exact H|].
  destruct l as [|t l]; [exact I|]. simpl. apply IH. eapply lp_followed_tail; eauto.
Qed.

Lemma TOKS_suffix_skipn k l : TOKS_suffix l -> TOKS_suffix (skipn k l).
Proof.
  intros [H1 H2 H3]. constructor.
  - now apply forallb_skipn.
  - now apply lp_followed_skipn.
  - destruct (skipn k l) as [|t r] eqn:E; [discriminate|].
    rewrite <- E. rewrite lastty_skipn by (rewrite E; discriminate). exact H3.
Qed.

Definition accgood (rest acc : list token) : Prop :=
  forallb childok acc = true /\
  match acc with
  | [] => exists t r, rest = t :: r /\ startok t = true
  | c :: _ => solidb c = true
  end.

Lemma accgood_snoc rest rest2 acc x :
  accgood rest acc -> childok x = true -> (acc = [] -> solidb x = true) ->
  accgood rest2 (acc ++ [x]).
Proof.
  intros [H1 H2] Hx Hs. split.
  - now rewrite forallb_snoc, H1, Hx.
  - destruct acc as [|c acc]; simpl; auto.
Qed.

(* a group may close where the next token, if there is one, could not start a child *)
Lemma accgood_raw rest acc :
  accgood rest acc -> match rest with t :: _ => startok t = false | [] => True end ->
  rawb (Branch TTGroup acc) = true.
Proof.
  intros [H1 H2] Hn. rewrite rawb_unfold, H1.
  destruct acc as [|c acc]; [|now rewrite H2].
  destruct H2 as (t & r & -> & Hs). congruence.
Qed.

Lemma gts_raw : forall fuel rest acc,
  (length rest < fuel)%nat -> TOKS_suffix rest -> accgood rest acc ->
  exists g rem, gts fuel rest acc = Ok (g, rem) /\ rawb g = true /\
                TOKS_suffix rem /\ (length rem <= length rest)%nat.
Proof.
  induction fuel as [|fuel IH]; intros rest acc Hf HT Hacc; [lia|].
  destruct rest as [|tok rest'].
  - exists (Branch TTGroup acc), []. split; [reflexivity|]. split; [|split; [exact HT|apply le_n]].
    exact (accgood_raw [] acc Hacc I).
  - cbn [gts]. pose proof HT as [Hl Hc Hla].
    cbn [forallb] in Hl. apply andb_true_iff in Hl as [Hl1 Hl2].
    assert (HT' : TOKS_suffix rest') by (apply (TOKS_suffix_skipn 1 (tok :: rest')); exact HT).
    destruct (tt_eqb (get_type tok) TTLParen) eqn:Elp.
    + (* a left parenthesis: the nested group starts with a Subgoal or another parenthesis *)
      assert (Hnext : exists t r, rest' = t :: r /\ startok t = true).
      { destruct rest' as [|t r].
        - exfalso. apply Hla. unfold lastty; simpl. destruct (get_type tok); try discriminate; reflexivity.
        - exists t, r. split; [reflexivity|]. destruct Hc as [Hc _]. apply Hc. exact Elp. }
      destruct (IH rest' [] ltac:(simpl in Hf; lia) HT' (conj eq_refl Hnext))
        as (g & rem & Hg & Hraw & HTr & Hlr).
      rewrite Hg; cbn [bind].
      destruct (IH (skipn 2 rem) (acc ++ [g])) as (g2 & rem2 & Hg2 & Hraw2 & HT2 & Hlen2).
      * rewrite skipn_length. simpl in Hf. lia.
      * now apply TOKS_suffix_skipn.
      * apply (accgood_snoc (tok :: rest') _ acc g Hacc).
        -- destruct g as [ty s|ty cs]; [discriminate|exact Hraw].
        -- intros _. unfold solidb. rewrite (rawb_group _ Hraw). reflexivity.
      * exists g2, rem2. split; [exact Hg2|split; [exact Hraw2|split; [exact HT2|]]].
        rewrite skipn_length in Hlen2. simpl. lia.
    + destruct (tt_eqb (get_type tok) TTRParen) eqn:Erp.
      * exists (Branch TTGroup acc), (tok :: rest'). split; [reflexivity|]. split; [|split; [exact HT|apply le_n]].
        apply (accgood_raw _ acc Hacc). unfold startok. rewrite Elp, orb_false_r.
        destruct (get_type tok); try discriminate; reflexivity.
      * assert (Hty : childok tok = true).
        { destruct tok as [ty s|ty cs]; [|discriminate]. simpl in *. destruct ty; try discriminate; exact Hl1. }
        destruct (IH rest' (acc ++ [tok])) as (g2 & rem2 & Hg2 & Hraw2 & HT2 & Hlen2).
        -- simpl in Hf. lia.
        -- exact HT'.
        -- apply (accgood_snoc (tok :: rest') _ acc tok Hacc Hty).
           intros ->. destruct Hacc as [_ (t & r & E & Hs)]. inversion E; subst.
           unfold startok in Hs. rewrite Elp, orb_false_r in Hs. unfold solidb. now rewrite Hs.
        -- exists g2, rem2. split; [exact Hg2|split; [exact Hraw2|split; [exact HT2|]]]. simpl. lia.
Qed.

Theorem sgroup_tokens_raw fuel T :
  TOKS T -> (length T < fuel)%nat -> exists g, sgroup_tokens fuel T = Ok g /\ rawb g = true.
Proof.
  intros [H1 H2 H3 H4 H5] Hf. unfold sgroup_tokens.
  destruct (gts_raw fuel T [] Hf) as (g & rem & Hg & Hraw & _).
  - now constructor.
  - split; [reflexivity|]. destruct T as [|t r]; [congruence|]. now exists t, r.
  - rewrite Hg. now exists g.
Qed.

(* "ready" trees: what token_tree_to_goal converts without panicking, given a leaf parser
   that returns on texts of at most n characters *)

Fixpoint readyb (t : token) : bool :=
  match t with
  | Leaf ty s => tt_eqb ty TTSubgoal && (length s <=? n)%nat
  | Branch ty cs =>
      match ty with
      | TTAnd | TTOr => forallb (fun c => match get_type c with
                                          | TTSubgoal | TTGroup | TTAnd => readyb c
                                          | _ => true
                                          end) cs
      | TTGroup => match cs with [c] => readyb c | _ => false end
      | TTSubgoal => false
      | _ => true
      end
  end.

(* a child of an And or Or node: ready if the loop converts it *)
Definition operandb (c : token) : bool :=
  match get_type c with TTSubgoal | TTGroup | TTAnd => readyb c | _ => true end.

Section Total.
  Variable ps : str -> res (presult goal).
  Hypothesis ps_total : forall s, (length s <= n)%nat -> finishes (ps s).

  Lemma ops_loop_finishes (and_too : bool) cs : forall acc,
    Forall (fun c => readyb c = true -> finishes (token_tree_to_goal ps c)) cs ->
    forallb operandb cs = true ->
    finishes (ops_loop ps (token_tree_to_goal ps) and_too cs acc).
  Proof.
    induction cs as [|c cs IH]; intros acc HF Hb; [exact I|].
    inversion HF as [|? ? Hc HF']; subst. cbn [forallb] in Hb. apply andb_true_iff in Hb as [Hb1 Hb2].
    cbn [ops_loop]. unfold operandb in Hb1.
    destruct (tt_eqb (get_type c) TTSubgoal) eqn:E1.
    { destruct c as [ty s|ty cs0]; cbn [get_type] in *; destruct ty; try discriminate.
      cbn [get_token_str bind]. apply Nat.leb_le in Hb1. specialize (ps_total s Hb1).
      destruct (ps s) as [[g|]| |]; try contradiction; cbn [bind]; [now apply IH | exact I]. }
    destruct (tt_eqb (get_type c) TTGroup || (and_too && tt_eqb (get_type c) TTAnd)) eqn:E2.
    { assert (Hr : readyb c = true).
      { destruct (get_type c); simpl in E2; rewrite ?andb_false_r in E2; try discriminate; exact Hb1. }
      specialize (Hc Hr).
      destruct (token_tree_to_goal ps c) as [[g|]| |]; try contradiction; cbn [bind];
        [now apply IH | exact I]. }
    now apply IH.
  Qed.

  Theorem tttg_total : forall t, readyb t = true -> finishes (token_tree_to_goal ps t).
  Proof.
    induction t as [ty s|ty cs IH] using token_ind'; intros Hr.
    - simpl in *. apply andb_true_iff in Hr as [-> Hr]. apply ps_total. now apply Nat.leb_le.
    - rewrite tttg_branch.
      destruct ty; cbn [tt_eqb]; try exact I.
      + (* Group *)
        cbn [readyb] in Hr. destruct cs as [|c [|c2 cs]]; try discriminate.
        inversion IH; subst. auto.
      + (* And *)
        pose proof (ops_loop_finishes false cs [] IH Hr) as H.
        destruct (ops_loop ps (token_tree_to_goal ps) false cs []) as [[l|]| |]; try contradiction; exact I.
      + (* Or *)
        pose proof (ops_loop_finishes true cs [] IH Hr) as H.
        destruct (ops_loop ps (token_tree_to_goal ps) true cs []) as [[l|]| |]; try contradiction; exact I.
  Qed.
End Total.

(* children of a group after the And pass *)
Definition midb (c : token) : bool :=
  match c with
  | Leaf ty s => (tt_eqb ty TTSubgoal || tt_eqb ty TTSemicolon) && (length s <=? n)%nat
  | Branch ty _ => (tt_eqb ty TTAnd || tt_eqb ty TTGroup) && readyb c
  end.

(* operands collected in and_list *)
Definition andopb (c : token) : bool :=
  match c with
  | Leaf ty s => tt_eqb ty TTSubgoal && (length s <=? n)%nat
  | Branch ty _ => tt_eqb ty TTGroup && readyb c
  end.

Lemma midb_orsel_ready c : midb c = true -> orsel c = true -> readyb c = true /\ operandb c = true.
Proof.
  assert (H : readyb c = true -> readyb c = true /\ operandb c = true).
  { intros H. split; [exact H|]. unfold operandb. destruct (get_type c); auto. }
  intros Hm Ho. apply H. revert Hm Ho.
  destruct c as [ty s|ty cs]; unfold midb, orsel; cbn [get_type].
  - destruct ty; try discriminate; auto.
  - intros Hm _. now apply andb_true_iff in Hm as [_ Hm].
Qed.

Lemma or_pass cs :
  forallb midb cs = true -> existsb orsel cs = true ->
  exists x, group_or_tokens (Branch TTGroup cs) = Ok (Branch TTGroup [x]) /\ readyb x = true.
Proof.
  intros Hm He. rewrite group_or_tokens_branch by reflexivity.
  assert (H1 : forallb midb (filter orsel cs) = true) by now apply forallb_filter.
  assert (H2 : forall c, In c (filter orsel cs) -> readyb c = true /\ operandb c = true).
  { intros c Hc. apply filter_In in Hc as [Hc Ho]. rewrite forallb_forall in Hm.
    apply midb_orsel_ready; auto. }
  assert (H3 : filter orsel cs <> []).
  { apply existsb_exists in He as (c & Hc & Ho). intros E.
    assert (Hin : In c (filter orsel cs)) by (apply filter_In; auto). rewrite E in Hin. destruct Hin. }
  destruct (filter orsel cs) as [|x [|y l]]; [congruence| |].
  - exists x. split; [reflexivity|]. apply H2. now left.
  - exists (Branch TTOr (x :: y :: l)). split; [reflexivity|].
    cbn [readyb]. apply forallb_forall. intros c Hc. apply H2, Hc.
Qed.

Lemma andop_midb c : andopb c = true -> midb c = true /\ orsel c = true.
Proof.
  destruct c as [ty s|ty cs]; unfold andopb, midb, orsel; cbn [get_type].
  - destruct ty; try discriminate; auto.
  - intros H. apply andb_true_iff in H as [H1 H2]. destruct ty; try discriminate.
    rewrite H2. auto.
Qed.

Lemma and_token_ready al :
  forallb andopb al = true ->
  midb (Branch TTAnd al) = true /\ orsel (Branch TTAnd al) = true.
Proof.
  intros H. split; [|reflexivity]. unfold midb. cbn [tt_eqb orb andb readyb].
  apply forallb_forall. intros c Hc. rewrite forallb_forall in H.
  destruct (andop_midb c (H c Hc)) as [M O]. apply (midb_orsel_ready c M O).
Qed.

(* what the operands collected in and_list become when they are flushed *)
Definition and_item (al : list token) : token :=
  match al with [a] => a | _ => Branch TTAnd al end.

Lemma and_flush al :
  (if (length al =? 1)%nat
   then match nth_error al 0 with Some t => Ok t | None => Panic end
   else make_branch_token TTAnd al) = Ok (and_item al).
Proof. destruct al as [|a [|b al]]; reflexivity. Qed.

Lemma and_item_ready al :
  forallb andopb al = true -> midb (and_item al) = true /\ orsel (and_item al) = true.
Proof.
  intros H. destruct al as [|a [|b al]]; try exact (and_token_ready _ H).
  simpl in H. apply andb_true_iff in H as [Ha _]. exact (andop_midb a Ha).
Qed.

Definition and_post (r : res token) : Prop :=
  exists cs', r = Ok (Branch TTGroup cs') /\ forallb midb cs' = true /\ existsb orsel cs' = true.

Lemma and_loop_ok gat : forall cs nc al,
  Forall (fun c => rawb c = true -> and_post (gat c)) cs ->
  forallb childok cs = true ->
  forallb midb nc = true -> forallb andopb al = true ->
  (existsb orsel nc = true \/ al <> [] \/ exists c r, cs = c :: r /\ solidb c = true) ->
  and_post (and_loop gat TTGroup cs nc al).
Proof.
  induction cs as [|c cs IH]; intros nc al HF Hco Hnc Hal Hsolid.
  - cbn [and_loop].
    destruct al as [|a al].
    + exists nc. split; [reflexivity|]. split; [exact Hnc|].
      destruct Hsolid as [H|[H|(c & r & E & _)]]; [exact H|congruence|discriminate].
    + destruct (and_item_ready _ Hal) as [M O].
      exists (nc ++ [and_item (a :: al)]). split; [destruct al; reflexivity|].
      rewrite forallb_snoc, Hnc, M, existsb_snoc, O. split; [reflexivity|apply orb_true_r].
  - inversion HF as [|? ? Hc HF']; subst.
    cbn [forallb] in Hco. apply andb_true_iff in Hco as [Hc1 Hc2].
    cbn [and_loop].
    destruct c as [ty s|ty cs0].
    + cbn [get_type]. simpl in Hc1.
      destruct ty; try discriminate; cbn [tt_eqb].
      * (* Subgoal *)
        apply IH; auto.
        -- rewrite forallb_snoc, Hal. exact Hc1.
        -- right. left. apply snoc_ne.
      * (* Comma *)
        apply IH; auto.
        destruct Hsolid as [H|[H|(c & r & E & Hs)]]; auto. inversion E; subst. discriminate.
      * (* Semicolon: and_list is flushed *)
        rewrite and_flush. cbn [bind]. destruct (and_item_ready _ Hal) as [M O].
        apply IH; auto.
        -- rewrite app_assoc, !forallb_snoc, Hnc, M. exact Hc1.
        -- left. rewrite app_assoc, !existsb_snoc, O. rewrite orb_true_r. reflexivity.
    + cbn [childok] in Hc1. pose proof (rawb_group _ Hc1) as Ety. cbn [get_type] in Ety. subst ty.
      cbn [get_type tt_eqb].
      destruct (Hc Hc1) as (cs1 & -> & M1 & O1). cbn [bind].
      destruct (or_pass cs1 M1 O1) as (x & -> & Rx). cbn [bind].
      apply IH; auto.
      * rewrite forallb_snoc, Hal. cbn [andopb tt_eqb readyb andb]. exact Rx.
      * right. left. apply snoc_ne.
Qed.

Theorem and_pass : forall g, rawb g = true -> and_post (group_and_tokens g).
Proof.
  induction g as [ty s|ty cs IH] using token_ind'; intros Hr; [discriminate|].
  pose proof (rawb_group _ Hr) as E. cbn [get_type] in E. subst ty.
  rewrite rawb_unfold in Hr. apply andb_true_iff in Hr as [Hs Hc].
  rewrite group_and_tokens_branch. apply and_loop_ok; auto.
  right. right. destruct cs as [|c r]; [discriminate|]. now exists c, r.
Qed.

End Bound.

(* enough fuel: tokenize needs more than length s, group_tokens more than the number of
   tokens, which is at most 2 * length s + 1 *)
Definition goal_fuel (s : str) : nat := 2 * length s + 3.

Lemma stokenize_total fuel s :
  (length s < fuel)%nat -> finishes (stokenize fuel s).
Proof.
  intros Hf. unfold stokenize. pose proof (trim_length s) as Hl.
  destruct (tk_trim s) as [|c0 chrs] eqn:Et; [exact I|].
  destruct (sloop_total fuel (mkS (c0 :: chrs) [] ch_hash [] [])) as (r & ->).
  { cbn [s_rest]. lia. }
  cbn [bind]. destruct r as [cf|]; [|exact I].
  destruct (s_stk cf); [|exact I]. destruct (s_w cf); exact I.
Qed.

Theorem tokenize_total s fuel :
  (length s < fuel)%nat -> finishes (tokenize fuel s).
Proof. intros Hf. rewrite tokenize_stream. now apply stokenize_total. Qed.

(* index_of_neck (Model/ParseRule.v) does not panic and finds the neck inside the text: what
   parse_rule_total_le needs of it *)
Lemma ion_loop_ok : forall chrs i b,
  (b = true -> (0 < i)%nat) ->
  match ion_loop chrs i b with
  | Ok (Some k) => (i <= k + 1)%nat /\ (k + 2 <= i + length chrs)%nat
  | Ok None => True
  | _ => False
  end.
Proof.
  induction chrs as [|c chrs IH]; intros i b Hb; simpl; [exact I|].
  destruct ((c =? ch_hyphen) && b) eqn:E.
  - apply andb_true_iff in E as [_ ->]. specialize (Hb eq_refl).
    destruct i; [lia|]. lia.
  - specialize (IH (S i) (c =? ch_colon) ltac:(lia)).
    destruct (ion_loop chrs (S i) (c =? ch_colon)) as [[k|]| |]; auto. lia.
Qed.

Lemma index_of_neck_ok chrs :
  match index_of_neck chrs with
  | Ok (Some k) => (k + 2 <= length chrs)%nat
  | Ok None => True
  | _ => False
  end.
Proof.
  unfold index_of_neck. pose proof (ion_loop_ok chrs 0 false ltac:(discriminate)) as H.
  destruct (ion_loop chrs 0 false) as [[k|]| |]; auto. simpl in H. lia.
Qed.

(* the leaf parsers are asked only about texts that are not longer than the input *)
Section GoalTotal.
  Variable ps : str -> res (presult goal).

  Theorem generate_goal_total_le s fuel :
    (forall t, (length t <= length s)%nat -> finishes (ps t)) ->
    (goal_fuel s <= fuel)%nat -> finishes (generate_goal ps fuel s).
  Proof.
    unfold goal_fuel. intros Hps Hf. unfold generate_goal. rewrite tokenize_stream.
    pose proof (stokenize_total fuel s ltac:(lia)) as Hg.
    destruct (stokenize fuel s) as [[T|]| |] eqn:Et; try contradiction; cbn [bind]; [|exact I].
    pose proof (stokenize_TOKS (length s) _ _ _ (le_n _) Et) as HT.
    pose proof (stokenize_length _ _ _ Et) as HL.
    rewrite group_tokens_stream.
    destruct (sgroup_tokens_raw (length s) fuel T HT ltac:(lia)) as (g & -> & Hraw). cbn [bind].
    destruct (and_pass _ g Hraw) as (cs' & -> & M & O). cbn [bind].
    destruct (or_pass _ cs' M O) as (x & -> & Rx). cbn [bind].
    exact (tttg_total (length s) ps Hps x Rx).
  Qed.

  Variable pc : str -> res (presult term).

  Theorem parse_rule_total_le s fuel :
    (forall t, (length t <= length s)%nat -> finishes (ps t)) ->
    (forall t, (length t <= length s)%nat -> finishes (pc t)) ->
    (goal_fuel s <= fuel)%nat -> finishes (parse_rule ps pc fuel s).
  Proof.
    intros Hps Hpc Hf. unfold parse_rule. pose proof (trim_length s) as Hl.
    set (chrs := tk_trim s) in *.
    destruct (length chrs =? 0)%nat eqn:E0; [exact I|]. apply Nat.eqb_neq in E0.
    destruct (nth_error chrs (length chrs - 1)) as [ch|] eqn:En.
    2:{ apply nth_error_None in En. lia. }
    (* with or without the final period: a text chrs2 that is not longer than s *)
    assert (Hcl : exists chrs2,
      (if ch =? ch_period
       then do c <- slice chrs 0 (length chrs - 1); Ok (c, (length chrs - 1)%nat)
       else Ok (chrs, length chrs)) = Ok (chrs2, length chrs2) /\ (length chrs2 <= length s)%nat).
    { destruct (ch =? ch_period); [|exists chrs; split; [reflexivity|lia]].
      destruct (slice_len chrs 0 (length chrs - 1)) as (c & -> & Lc); try lia.
      exists c. rewrite Lc, Nat.sub_0_r. split; [reflexivity|lia]. }
    destruct Hcl as (chrs2 & -> & Hl2). cbn [bind]. clear En.
    pose proof (index_of_neck_ok chrs2) as Hn.
    destruct (index_of_neck chrs2) as [[index|]| |]; try contradiction; cbn [bind].
    - destruct (slice_len chrs2 0 index) as (head & -> & Lh); try lia.
      destruct (slice_len chrs2 (index + 2) (length chrs2)) as (body & -> & Lb); try lia. cbn [bind].
      pose proof (index_of_neck_ok body) as Hn2.
      destruct (index_of_neck body) as [[k|]| |]; try contradiction; cbn [bind]; [exact I|].
      pose proof (Hps head ltac:(lia)) as Hp.
      destruct (ps head) as [[g|]| |]; try contradiction; cbn [bind]; [|exact I].
      destruct g; try exact I.
      assert (Hg : finishes (generate_goal ps fuel body)).
      { apply generate_goal_total_le; [intros t' Ht'; apply Hps; lia|unfold goal_fuel in *; lia]. }
      destruct (generate_goal ps fuel body) as [[b|]| |]; try contradiction; exact I.
    - pose proof (Hpc chrs2 Hl2) as Hp.
      destruct (pc chrs2) as [[f|]| |]; try contradiction; exact I.
  Qed.
End GoalTotal.

(* `returns` spells the two outcomes out: the form in which Properties/C18*.v state the results *)
Theorem generate_goal_returns_le (ps : str -> res (presult goal)) s fuel :
  (forall t, (length t <= length s)%nat -> returns (ps t)) ->
  (2 * length s + 3 <= fuel)%nat -> returns (generate_goal ps fuel s).
Proof.
  intros Hps Hf. apply returns_finishes. apply generate_goal_total_le; [|exact Hf].
  intros t Ht. apply returns_finishes. now apply Hps.
Qed.

Theorem parse_rule_returns_le (ps : str -> res (presult goal)) (pc : str -> res (presult term)) s fuel :
  (forall t, (length t <= length s)%nat -> returns (ps t)) ->
  (forall t, (length t <= length s)%nat -> returns (pc t)) ->
  (2 * length s + 3 <= fuel)%nat -> returns (parse_rule ps pc fuel s).
Proof.
  intros Hps Hpc Hf. apply returns_finishes. apply parse_rule_total_le; [| |exact Hf].
  - intros t Ht. apply returns_finishes. now apply Hps.
  - intros t Ht. apply returns_finishes. now apply Hpc.
Qed.

Theorem generate_goal_returns (ps : str -> res (presult goal)) :
  (forall s, returns (ps s)) ->
  forall s fuel, (2 * length s + 3 <= fuel)%nat -> returns (generate_goal ps fuel s).
Proof. intros Hps s fuel. apply generate_goal_returns_le. intros t _. apply Hps. Qed.

Theorem parse_rule_returns (ps : str -> res (presult goal)) (pc : str -> res (presult term)) :
  (forall s, returns (ps s)) -> (forall s, returns (pc s)) ->
  forall s fuel, (2 * length s + 3 <= fuel)%nat -> returns (parse_rule ps pc fuel s).
Proof.
  intros Hps Hpc s fuel. apply parse_rule_returns_le; [intros t _; apply Hps|intros t _; apply Hpc].
Qed.

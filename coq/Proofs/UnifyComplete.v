(* C06: unification is COMPLETE and returns a MOST GENERAL unifier (Spec/SpecUnifySem.v,
   `general_complete`): whenever `unify` returns, every valuation that solves the input substitution
   set and gives both terms the same value also solves the result - in particular the result is
   not a failure.  For ALL terms and substitution sets: `$_` (denotes anything), NaN (denotes
   nothing), lists with tail variables, any functor; function terms denote nothing here (C13).

   The invariant is the classical one - "sigma solves the current set and equalises the pairs still
   to be unified": every failing branch of `unify_body` contradicts the existence of sigma, every
   binding `id := t` is justified because sigma id is the common value. *)
From Flocq Require Import IEEE754.Binary IEEE754.Bits.
From Suiron Require Import Model.Term Model.Subst Model.Show Model.Lists Model.Arith Model.Unify
  Spec.SpecUnifySem Proofs.UnifyInv.
Open Scope N_scope.

(* IEEE == is equality of values (`fkey`), except on NaN *)
Lemma compopp_eq c : CompOpp c = Eq -> c = Eq.
Proof. destruct c; auto; discriminate. Qed.

Lemma feqb_fkey a b : feqb a b = true -> fkey a = fkey b.
Proof.
  unfold feqb, fcmp, Bcompare.
  destruct a as [sa|sa|sa pa Ha|sa ma ea Ha], b as [sb|sb|sb pb Hb|sb mb eb Hb]; cbn; try discriminate;
    try reflexivity; try (destruct sa; discriminate); try (destruct sb; discriminate).
  - destruct sa, sb; try discriminate; reflexivity.
  - destruct sa, sb; try discriminate;
      (destruct (Z.compare ea eb) eqn:Ez; try discriminate); apply Z.compare_eq in Ez; subst;
      (destruct (Pos.compare_cont Eq ma mb) eqn:Ep; cbn; try discriminate);
      apply Pos.compare_eq in Ep; now subst.
Qed.

Lemma fkey_feqb a b : fkey a = fkey b -> f64_is_nan a = false -> feqb a b = true.
Proof.
  unfold feqb, fcmp, Bcompare, f64_is_nan.
  destruct a as [sa|sa|sa pa Ha|sa ma ea Ha], b as [sb|sb|sb pb Hb|sb mb eb Hb]; cbn; try discriminate;
    try reflexivity.
  - intros H _. inversion H; subst. destruct sb; reflexivity.
  - intros H _. inversion H; subst. rewrite Z.compare_refl.
    change (Pos.compare_cont Eq mb mb) with (Pos.compare mb mb). rewrite Pos.compare_refl.
    destruct sb; reflexivity.
Qed.

Definition gc (rec : term -> term -> subst -> res (option subst)) : Prop :=
  forall a b ss r sigma tr, rec a b ss = Ok r ->
    solvesr sigma ss -> dens sigma a tr -> dens sigma b tr ->
    exists ss', r = Some ss' /\ solvesr sigma ss'.

Lemma solvesr_nil sigma : solvesr sigma [].
Proof. intros id t H. now rewrite ss_get_nil in H. Qed.

Lemma solvesr_set sigma ss id t : solvesr sigma ss -> dens sigma t (sigma id) ->
  solvesr sigma (ss_set ss id t).
Proof.
  intros Hs Ht j u Hj. destruct (N.eq_dec j id) as [->|Hne].
  - rewrite ss_get_set_same in Hj. now inversion Hj; subst.
  - rewrite ss_get_set_other in Hj by assumption. eauto.
Qed.

Lemma Forall2_len {A B} (R : A -> B -> Prop) l l' : Forall2 R l l' -> length l = length l'.
Proof. induction 1; simpl; congruence. Qed.

Section Body.
  Variable rec : term -> term -> subst -> res (option subst).
  Hypothesis Hrec : gc rec.
  Variable sigma : valuation.

  Lemma unify_args_gc : forall ls trs, Forall2 (dens sigma) ls trs ->
    forall rs, Forall2 (dens sigma) rs trs ->
    forall s s2 r, solvesr sigma s -> solvesr sigma s2 -> unify_args rec ls rs s s2 = Ok r ->
    exists ss', r = Some ss' /\ solvesr sigma ss'.
  Proof.
    induction 1 as [|l tr ls trs Hl Hls IH]; intros rs Hrs s s2 r Hs H2 H.
    - cbn in H. inversion H; subst. eauto.
    - inversion Hrs as [|r0 tr0 rs0 trs0 Hr Hrs0]; subst. cbn [unify_args] in H.
      destruct (is_anon l || is_anon r0).
      + exact (IH _ Hrs0 _ _ _ Hs H2 H).
      + destruct (rec l r0 s) as [u| |] eqn:E; cbn [bind] in H; try discriminate.
        destruct (Hrec _ _ _ _ _ _ E Hs Hl Hr) as (s1 & -> & Hs1).
        exact (IH _ Hrs0 _ _ _ Hs1 Hs1 H).
  Qed.

  Lemma unify_lists_gc : forall this tr, densl sigma this tr ->
    forall other, densl sigma other tr ->
    forall s r, solvesr sigma s -> unify_lists rec this other s = Ok r ->
    exists ss', r = Some ss' /\ solvesr sigma ss'.
  Proof.
    induction 1 as [nx c|h nx c a b Hh Hda Hdb IH|h nx c tr Hd]; intros other Ho s r Hs H.
    - inversion Ho as [onx oc|? ? ? ? ? ? ? ?|oh onx oc otr Hoh]; subst; cbn in H.
      + inversion H; subst. eauto.
      + eapply Hrec; [exact H|exact Hs|exact Hoh|]. constructor. constructor.
    - inversion Ho as [|oh onx oc oa ob Hoh Hoa Hob|oh onx oc otr Hoh]; subst.
      + cbn [unify_lists is_nil orb andb] in H. rewrite Hh in H. cbn [andb] in H.
        destruct (rec h oh s) as [u| |] eqn:E; cbn [bind] in H; try discriminate.
        destruct (Hrec _ _ _ _ _ _ E Hs Hda Hoa) as (s1 & -> & Hs1).
        eapply IH; eauto.
      + cbn in H. eapply Hrec; [exact H|exact Hs|exact Hoh|]. constructor. now constructor.
    - inversion Ho as [onx oc|oh onx oc oa ob Hoh Hoa Hob|oh onx oc otr Hoh]; subst.
      + cbn in H. eapply Hrec; [exact H|exact Hs|exact Hd|]. constructor. constructor.
      + cbn in H. eapply Hrec; [exact H|exact Hs|exact Hd|]. constructor. now constructor.
      + cbn [unify_lists is_nil orb andb] in H.
        destruct (is_anon oh); [inversion H; subst; eauto|].
        destruct (is_anon h); [inversion H; subst; eauto|].
        eapply Hrec; eauto.
  Qed.

  Ltac nolist := try (match goal with Hx : densl _ (TList _ _ _ false) _ |- _ => now inversion Hx end).

  Lemma unify_body_gc f : forall a b ss r tr, unify_body rec f a b ss = Ok r ->
    solvesr sigma ss -> dens sigma a tr -> dens sigma b tr ->
    exists ss', r = Some ss' /\ solvesr sigma ss'.
  Proof.
    intros a b ss r tr H Hs Ha Hb.
    destruct (term_eqb a b) eqn:Eab;
      [unfold unify_body in H; rewrite Eab in H; inversion H; subst; eauto|].
    destruct (is_anon b) eqn:Eanon;
      [unfold unify_body in H; rewrite Eab, Eanon in H; inversion H; subst; eauto|].
    assert (forall o, rec b a ss = Ok o -> exists ss', o = Some ss' /\ solvesr sigma ss') as Hswap.
    { intros o E. eapply Hrec; eauto. }
    (* the operands are taken apart while H is still folded: the unfolded body is large *)
    inversion Ha as [tr0|s|z|fl Hnan|id n|ts trs Hts|h nx c tr0 Hl]; subst.
    - unfold unify_body in H. rewrite Eab, Eanon in H. inversion H; subst; eauto.
    - inversion Hb; subst; nolist; unfold unify_body in H; cbn [term_eqb is_anon] in H, Eab, Eanon;
        try discriminate; try (apply Hswap; exact H).
      rewrite str_eqb_refl in Eab. discriminate.
    - inversion Hb; subst; nolist; unfold unify_body in H; cbn [term_eqb is_anon] in H, Eab, Eanon;
        try discriminate; try (apply Hswap; exact H).
      rewrite Z.eqb_refl in Eab. discriminate.
    - inversion Hb as [| | |fl2 Hnan2 E2| | |]; subst; nolist; unfold unify_body in H;
        cbn [term_eqb is_anon] in H, Eab, Eanon; try discriminate; try (apply Hswap; exact H).
      rewrite (fkey_feqb fl fl2) in Eab by auto. discriminate.
    - rewrite body_var in H by (try assumption; intros ? ? ->; inversion Hb).
      destruct (id =? 0); [discriminate|].
      destruct (ss_get ss id) as [u|] eqn:Eg.
      + eapply Hrec; [exact H|exact Hs| |exact Hb]. apply Hs, Eg.
      + destruct (chain_reaches f id b ss) as [al| |]; cbn [bind] in H; try discriminate.
        inversion H; subst. destruct al; [eauto|].
        eexists; split; [reflexivity|]. apply solvesr_set; assumption.
    - inversion Hb as [| | | |id n E|ots trs2 Hots E|]; subst; nolist; unfold unify_body in H;
        rewrite ?Eab in H; cbn [is_anon] in H, Eanon; try discriminate; try (apply Hswap; exact H).
      rewrite (Forall2_len _ _ _ Hts), <- (Forall2_len _ _ _ Hots), Nat.eqb_refl in H. cbn [negb] in H.
      eapply unify_args_gc; [exact Hts|exact Hots|exact Hs|apply solvesr_nil|exact H].
    - (* the value of a list is nil or a cons: known before b is taken apart, few cases are left *)
      pose proof Hl as Hl0. inversion Hl0; subst;
        (inversion Hb as [tr1|s E|z E|fl Hnan E|id n E|ots trs2 Hots E|oh onx oc tr1 Hol]; subst;
         unfold unify_body in H; rewrite ?Eab in H; cbn [is_anon] in H, Eanon;
         try discriminate; try (apply Hswap; exact H));
        exact (unify_lists_gc _ _ Hl _ Hol _ _ Hs H).
  Qed.
End Body.

Theorem unify_gc : forall fuel, gc (unify fuel).
Proof.
  induction fuel as [|f IH]; intros a b ss r sigma tr H; [discriminate|].
  rewrite unify_S in H. eapply unify_body_gc; eauto.
Qed.


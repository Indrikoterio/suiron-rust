(* C19 at term level, part 3: complex terms and, further down, lists.  If every piece pi is a good text that parse_term
   reads as ti, then parse_term reads `f(p1, ..., pn)` (n >= 0) as the complex term
   f(t1, ..., tn) - for a functor f `[a-z][A-Za-z0-9_]*` other than the five names of built-in
   functions, and a text of at most 1000 characters (validate_complex). *)
From Coq Require Import Lia String.
From Suiron Require Import Model.ParseTerm Model.Show Proofs.ParseTermProofs Proofs.ParseRoundtrip.
From Suiron Require Import Proofs.TermRoundtrip Proofs.TermRoundtripText.
Open Scope N_scope.

Definition reserved_functor (f : str) : bool :=
  str_eqb f (s2l "join") || str_eqb f (s2l "add") || str_eqb f (s2l "subtract") ||
  str_eqb f (s2l "multiply") || str_eqb f (s2l "divide").

Definition functor_name (f : str) : bool := simple_atom f && negb (reserved_functor f).

Lemma prefix_paren g : forall f r,
  count_c c_lpar g = 0 -> count_c c_lpar f = 0 ->
  str_prefix (g ++ [c_lpar]) (f ++ c_lpar :: r) = true -> f = g.
Proof.
  induction g as [|y g IH]; intros [|x f] r Hg Hf H; cbn [app str_prefix count_c] in *.
  - reflexivity.
  - apply andb_true_iff in H as [H _]. rewrite N.eqb_sym in H. rewrite H in Hf. lia.
  - apply andb_true_iff in H as [H _]. rewrite H in Hg. lia.
  - apply andb_true_iff in H as [H1 H2]. apply N.eqb_eq in H1. subst y.
    f_equal. apply (IH f r); [lia|lia|exact H2].
Qed.

Lemma simple_atom_no_parens f : simple_atom f = true ->
  count_c c_lpar f = 0 /\ count_c c_rpar f = 0.
Proof.
  intros H. apply simple_atom_word in H as (_ & Hall & _).
  split; apply count_c_wchars; (reflexivity || assumption).
Qed.

Lemma functor_name_prefixes f r : functor_name f = true ->
  str_prefix fn_join (f ++ c_lpar :: r) = false /\
  str_prefix fn_add (f ++ c_lpar :: r) = false /\
  str_prefix fn_subtract (f ++ c_lpar :: r) = false /\
  str_prefix fn_multiply (f ++ c_lpar :: r) = false /\
  str_prefix fn_divide (f ++ c_lpar :: r) = false.
Proof.
  unfold functor_name, reserved_functor. intros H. apply andb_true_iff in H as [Hs Hr].
  apply negb_true_iff in Hr.
  apply orb_false_iff in Hr as [Hr H5]. apply orb_false_iff in Hr as [Hr H4].
  apply orb_false_iff in Hr as [Hr H3]. apply orb_false_iff in Hr as [H1 H2].
  destruct (simple_atom_no_parens f Hs) as [Hc _].
  assert (K : forall g, count_c c_lpar g = 0 -> str_eqb f g = false ->
                        str_prefix (g ++ [c_lpar]) (f ++ c_lpar :: r) = false).
  { intros g Hg Hne. destruct (str_prefix (g ++ [c_lpar]) (f ++ c_lpar :: r)) eqn:E; [|reflexivity].
    apply prefix_paren in E; [|exact Hg|exact Hc]. subst g. now rewrite str_eqb_refl in Hne. }
  repeat split.
  - apply (K (s2l "join")); [reflexivity|exact H1].
  - apply (K (s2l "add")); [reflexivity|exact H2].
  - apply (K (s2l "subtract")); [reflexivity|exact H3].
  - apply (K (s2l "multiply")); [reflexivity|exact H4].
  - apply (K (s2l "divide")); [reflexivity|exact H5].
Qed.

Lemma simple_atom_functor_ok f : simple_atom f = true -> functor_ok f = true.
Proof.
  intros Hs. destruct (simple_atom_no_parens f Hs) as [H1 H2].
  pose proof (simple_atom_word f Hs) as Hw. pose proof (word_hd f Hw) as Hh.
  unfold functor_ok. destruct f as [|c r]; [discriminate|].
  cbn [hd] in Hh. rewrite H1, H2. rewrite (wchar_not_white c Hh).
  cbn [simple_atom] in Hs. apply andb_true_iff in Hs as [Hc _].
  now rewrite (class_neq is_lower c c_dollar Hc).
Qed.

Lemma functor_name_ok f : functor_name f = true -> functor_ok f = true.
Proof.
  intros H. apply simple_atom_functor_ok. unfold functor_name in H. now apply andb_true_iff in H as [H _].
Qed.

Lemma make_term_call rt ra f s :
  functor_name f = true ->
  make_term rt ra (f ++ c_lpar :: s ++ [c_rpar]) = parse_complex_body ra (f ++ c_lpar :: s ++ [c_rpar]).
Proof.
  intros Hf.
  destruct (functor_name_prefixes f (s ++ [c_rpar]) Hf) as (P1 & P2 & P3 & P4 & P5).
  pose proof (functor_name_ok f Hf) as Hok.
  pose proof (call_text_trimmed f s Hok) as Ht.
  pose proof (last_call_text f s) as Hl.
  unfold functor_name in Hf. apply andb_true_iff in Hf as [Hs _].
  set (w := f ++ c_lpar :: s ++ [c_rpar]) in *.
  assert (Hlen : (2 <=? length w)%nat = true).
  { apply Nat.leb_le. unfold w. rewrite app_length. cbn [length]. rewrite app_length. cbn [length]. lia. }
  assert (Hw : exists c r, w = c :: r /\ is_lower c = true).
  { unfold w. destruct f as [|c f']; [discriminate|]. cbn [simple_atom] in Hs.
    apply andb_true_iff in Hs as [Hc _]. cbn [app]. eauto. }
  destruct Hw as (c & r & Ew & Hc).
  unfold make_term. rewrite Ht. destruct (classify_term w) as [[hd hnd] hp].
  clearbody w. subst w. cbv iota.
  rewrite !(class_neq is_lower c _ Hc), Hlen, Hl by reflexivity. cbn [andb negb].
  change (c_rpar =? c_rpar) with true. cbv iota.
  rewrite P1, P2, P3, P4, P5. reflexivity.
Qed.

Lemma join_comma_blank q l : join_comma ((32 :: q) :: l) = 32 :: join_comma (q :: l).
Proof. destruct l; reflexivity. Qed.

Lemma join_strs_join_comma ps : forall p,
  join_strs sep_comma (p :: ps) = join_comma (p :: map (cons 32) ps).
Proof.
  induction ps as [|q ps IH]; intros p; [reflexivity|].
  rewrite join_strs_cons2. cbn [map]. rewrite join_comma_cons2. rewrite IH.
  rewrite join_comma_blank. reflexivity.
Qed.

Lemma good_str_neqb p : good p -> str_eqb p [] = false.
Proof. intros H. pose proof (g_ne p H). destruct p; [contradiction|reflexivity]. Qed.

Lemma good_no_arith p : good p -> no_arith_infix p = true.
Proof. intros H. apply no_arith_infix_opfree; [now apply good_trimmed|apply (g_opfree p H)]. Qed.

Lemma good_pa_scan p : good p -> pa_scan p false 0 0%Z 0%Z = Some (false, 0, 0%Z, 0%Z).
Proof.
  intros H. rewrite <- (app_nil_r p) at 1.
  apply (pa_scan_fscan p [] 0 0%Z 0%Z 0%Z 0%Z), (proj1 (g_scan p H)); reflexivity.
Qed.

Lemma args_plain_good p : good p -> args_plain p = true.
Proof.
  intros H. unfold args_plain. rewrite (good_trimmed p H), (good_pa_scan p H).
  now rewrite (proj2 (N.eqb_neq _ _) (g_lastc p H)).
Qed.

(* an integer as the only argument (C20 applies) *)
Theorem parse_arguments_show_int : forall fuel z,
  i64_range z -> parse_arguments (S fuel) (show_Z z) = Ok (POk [TInt z]).
Proof.
  intros fuel z Hr. pose proof (good_word _ (show_Z_word z)) as Hg.
  rewrite context_independent_args; [|now apply args_plain_good|now apply good_no_arith].
  now rewrite parse_term_show_int.
Qed.

Lemma piece_ok_good p : good p -> piece_ok p = true.
Proof.
  intros H. unfold piece_ok. rewrite (good_trimmed p H), (good_str_neqb p H).
  rewrite (tchar_not_bslash _ (good_hd_tchar p H)).
  assert (E : (last p 0 =? c_comma) = false) by (apply N.eqb_neq; apply (g_lastc p H)).
  rewrite E, (good_no_arith p H), (good_pa_scan p H). reflexivity.
Qed.

Lemma piece_ok_blank_good p : good p -> piece_ok (32 :: p) = true.
Proof.
  intros H. pose proof (piece_ok_good p H) as Hp. unfold piece_ok in *.
  assert (Et : trim (32 :: p) = trim p) by (apply trim_cons_white; reflexivity).
  assert (El : last (32 :: p) 0 = last p 0).
  { pose proof (g_ne p H). destruct p; [contradiction|reflexivity]. }
  assert (En : no_arith_infix (32 :: p) = no_arith_infix p).
  { unfold no_arith_infix. now rewrite Et. }
  assert (Es : pa_scan (32 :: p) false 0 0%Z 0%Z = pa_scan p false 0 0%Z 0%Z) by reflexivity.
  now rewrite Et, El, En, Es.
Qed.

Lemma piece_ok_pieces p ps : Forall good (p :: ps) -> forallb piece_ok (p :: map (cons 32) ps) = true.
Proof.
  intros H. inversion H as [|x l Hp Hps]; subst. cbn [forallb].
  rewrite (piece_ok_good p Hp). cbn [andb].
  clear -Hps. induction ps as [|q ps IH]; [reflexivity|].
  inversion Hps as [|x l Hq Hr]; subst. cbn [map forallb].
  rewrite (piece_ok_blank_good q Hq). now apply IH.
Qed.

Lemma join_ends ps : ps <> [] -> Forall good ps ->
  join_strs sep_comma ps <> [] /\
  is_white (hd 0 (join_strs sep_comma ps)) = false /\
  is_white (last (join_strs sep_comma ps) 0) = false.
Proof.
  induction ps as [|p ps IH]; intros Hne H; [now elim Hne|].
  inversion H as [|x l Hp Hps]; subst.
  destruct ps as [|q rest].
  - cbn [join_strs]. split; [apply (g_ne p Hp)|]. split; [apply (g_hdw p Hp)|apply (g_lastw p Hp)].
  - destruct (IH ltac:(discriminate) Hps) as (I1 & I2 & I3).
    rewrite join_strs_cons2. pose proof (g_ne p Hp) as Hpne.
    split; [destruct p; [contradiction|discriminate]|]. split.
    + pose proof (g_hdw p Hp) as Hh. destruct p; [contradiction|exact Hh].
    + rewrite app_assoc. rewrite last_app_nonempty by exact I1. exact I3.
Qed.

Lemma join_trimmed ps : Forall good ps -> trim (join_strs sep_comma ps) = join_strs sep_comma ps.
Proof.
  intros H. destruct ps as [|p ps]; [reflexivity|].
  destruct (join_ends (p :: ps) ltac:(discriminate) H) as (_ & H2 & H3).
  apply trimmed_trim. right. now split.
Qed.

Lemma pseq_all_ok {A} (f : str -> res (presult A)) ps ts :
  Forall2 (fun p t => f p = Ok (POk t)) ps ts -> pseq (map f ps) = Ok (POk ts).
Proof.
  induction 1 as [|p t ps ts Hp Hps IH]; [reflexivity|].
  cbn [map pseq]. rewrite Hp, IH. reflexivity.
Qed.

(* parse_arguments on `p1, ..., pn`, n >= 1 *)
Lemma parse_arguments_pieces fuel ps ts :
  ps <> [] -> Forall good ps ->
  Forall2 (fun p t => parse_term (S fuel) p = Ok (POk t)) ps ts ->
  parse_arguments (S fuel) (join_strs sep_comma ps) = Ok (POk ts).
Proof.
  intros Hne Hg Hp. destruct ps as [|p ps]; [now elim Hne|].
  pose proof (join_trimmed (p :: ps) Hg) as Ht.
  rewrite join_strs_join_comma in *.
  rewrite context_independent_args_nary; [|discriminate|now apply piece_ok_pieces|exact Ht].
  apply pseq_all_ok.
  inversion Hp as [|x t l ts' Hx Hl]; subst. constructor; [exact Hx|].
  clear -Hl. induction Hl as [|q t ps ts' Hq Hl IH]; [constructor|].
  cbn [map]. constructor; [|exact IH].
  rewrite <- Hq. apply parse_term_trim_eq. apply trim_cons_white. reflexivity.
Qed.

(* the text of a call reaches parse_complex_body, whatever its length *)
Lemma parse_term_call_body fuel f ps :
  functor_name f = true -> Forall good ps ->
  parse_term (S fuel) (call_text f ps) = parse_complex_body (parse_arguments fuel) (call_text f ps).
Proof.
  intros Hf Hg.
  pose proof Hf as Hf'. unfold functor_name in Hf'. apply andb_true_iff in Hf' as [Hs _].
  pose proof (good_call f ps (simple_atom_word f Hs) Hg) as Hgood.
  cbn [parse_term]. rewrite parse_term_body_plain.
  2:{ now apply good_no_arith. }
  2:{ intros tl E. rewrite (good_trimmed _ Hgood) in E.
      pose proof (good_hd_tchar _ Hgood) as Hh. rewrite E in Hh. discriminate Hh. }
  rewrite (good_trimmed _ Hgood). unfold call_text. now apply make_term_call.
Qed.

Theorem parse_term_call : forall fuel f ps ts,
  functor_name f = true -> Forall good ps ->
  Forall2 (fun p t => parse_term fuel p = Ok (POk t)) ps ts ->
  (length (call_text f ps) <= 1000)%nat ->
  parse_term (S fuel) (call_text f ps) = Ok (POk (TComplex (TAtom f :: ts))).
Proof.
  intros fuel f ps ts Hf Hg Hp Hlen.
  rewrite parse_term_call_body by assumption.
  pose proof (functor_name_ok f Hf) as Hok.
  unfold functor_name in Hf. apply andb_true_iff in Hf as [Hs _].
  unfold call_text in *.
  rewrite parse_complex_body_call; [|exact Hok| |exact Hlen].
  2:{ unfold parens_balanced. apply N.eqb_eq. apply (i_bal _ (inner_join ps Hg)). }
  clear Hlen. unfold parse_functor_terms.
  assert (Etf : trim f = f) by (apply word_trimmed; now apply simple_atom_word).
  destruct ps as [|p ps'] eqn:Eps.
  - inversion Hp; subst. cbn [join_strs]. now rewrite Etf.
  - destruct fuel as [|fuel]; [inversion Hp; discriminate|]. rewrite <- Eps in *.
    assert (Hne : ps <> []) by (rewrite Eps; discriminate).
    destruct (join_ends ps Hne Hg) as (Hbne & _ & _).
    destruct (join_strs sep_comma ps) as [|b0 body'] eqn:Eb; [now elim Hbne|]. rewrite <- Eb.
    rewrite (parse_arguments_pieces fuel ps ts Hne Hg Hp). cbn [pbind]. now rewrite Etf.
Qed.

(* validate_complex refuses a longer text *)
Lemma parse_term_call_too_long fuel f ps :
  functor_name f = true -> Forall good ps -> (1000 < length (call_text f ps))%nat ->
  parse_term (S fuel) (call_text f ps) = Ok PErr.
Proof.
  intros Hf Hg Hlen. rewrite parse_term_call_body by assumption.
  unfold parse_complex_body, call_text in *.
  rewrite call_text_trimmed by now apply functor_name_ok.
  unfold validate_complex. apply Nat.ltb_lt in Hlen. rewrite Hlen. clear Hlen.
  now destruct (f ++ c_lpar :: join_strs sep_comma ps ++ [c_rpar]).
Qed.

(* the same for the printed text of a complex term *)
Lemma Forall_map_good ts : Forall (fun t => good (show_term t)) ts -> Forall good (map show_term ts).
Proof. induction 1; cbn [map]; constructor; assumption. Qed.

Lemma Forall2_map_parse fuel ts :
  Forall (fun t => parse_term fuel (show_term t) = Ok (POk t)) ts ->
  Forall2 (fun p t => parse_term fuel p = Ok (POk t)) (map show_term ts) ts.
Proof. induction 1; cbn [map]; constructor; assumption. Qed.

Corollary parse_term_show_complex : forall fuel f ts,
  functor_name f = true ->
  Forall (fun t => good (show_term t)) ts ->
  Forall (fun t => parse_term fuel (show_term t) = Ok (POk t)) ts ->
  (length (show_term (TComplex (TAtom f :: ts))) <= 1000)%nat ->
  parse_term (S fuel) (show_term (TComplex (TAtom f :: ts))) = Ok (POk (TComplex (TAtom f :: ts))).
Proof.
  intros fuel f ts Hf Hg Hp Hlen. rewrite show_complex_text in *.
  apply parse_term_call; [exact Hf|now apply Forall_map_good|now apply Forall2_map_parse|exact Hlen].
Qed.

(* the limit of validate_complex is real: f(aaa...a) with 1001 characters is not read back *)
Definition long_atom (n : nat) : str := repeat 97 n.
Example complex_1000_ok :
  parse_term 5 (show_term (TComplex [TAtom [102]; TAtom (long_atom 997)])) =
  Ok (POk (TComplex [TAtom [102]; TAtom (long_atom 997)])).
Proof.
  assert (Ha : simple_atom (long_atom 997) = true) by (vm_compute; reflexivity).
  apply parse_term_show_complex.
  - reflexivity.
  - constructor; [|constructor]. apply good_word. now apply simple_atom_word.
  - constructor; [|constructor]. now apply parse_term_show_atom.
  - apply Nat.leb_le. vm_compute. reflexivity.
Qed.
Example complex_1001_not_read_back :
  parse_term 5 (show_term (TComplex [TAtom [102]; TAtom (long_atom 998)])) = Ok PErr.
Proof.
  assert (Ha : simple_atom (long_atom 998) = true) by (vm_compute; reflexivity).
  rewrite show_complex_text. apply parse_term_call_too_long.
  - reflexivity.
  - constructor; [|constructor]. apply good_word. now apply simple_atom_word.
  - apply Nat.ltb_lt. vm_compute. reflexivity.
Qed.

(* the five reserved functors are read as built-in functions *)
Example reserved_functor_not_read_back :
  parse_term 5 (show_term (TComplex [TAtom (s2l "add"); TAtom [97]])) =
  Ok (POk (TFun (s2l "add") [TAtom [97]])).
Proof. vm_compute. reflexivity. Qed.

(* Lists.  If every piece pi is a good text that parse_term reads
   as ti, then parse_term reads `[p1, ..., pn]` (n >= 0) as the list of t1 ... tn and
   `[p1, ..., pn | v]` (n >= 1, v a variable `$V` or `$_`) as that list with the tail v - in the node shape that
   link_front builds, which is the one of make_list_of_terms / make_linked_list. *)

Definition tchars (s : str) : Prop := Forall (fun c => tchar c = true) s.

(* the loop of parse_linked_list, counted by the characters still to be scanned: n is the index
   of the next step plus one, and pll_from .. 0 is the final step *)
Definition pll_from (rt : str -> res (presult term)) (args : str) (n : nat) (st : pll_state)
  : res (presult term) :=
  match n with
  | O => pll_final rt args st
  | S i => pll_loop rt args i st
  end.

Lemma pll_from_S rt args i st :
  pll_from rt args (S i) st = (dop st' <- pll_step rt args i st; pll_from rt args i st').
Proof. destruct i; reflexivity. Qed.

(* on a text without backslash, the escape test reads the character *)
Lemma ee_char args ind c ch : tchars args -> nth_error args ind = Some c -> ee args ind ch = (c =? ch).
Proof.
  intros Hn H. unfold ee. rewrite H. destruct ind as [|p]; [apply andb_true_r|].
  destruct (nth_error args p) as [b|] eqn:Eb; [|apply andb_true_r].
  apply nth_error_In in Eb. unfold tchars in Hn. rewrite Forall_forall in Hn.
  now rewrite (tchar_not_bslash b (Hn b Eb)), andb_true_r.
Qed.

Lemma equal_escape_char args ind c ch :
  tchars args -> nth_error args ind = Some c -> equal_escape args ind ch = Ok (c =? ch).
Proof.
  intros Hn H. rewrite equal_escape_ee by (apply nth_error_Some; rewrite H; discriminate).
  now rewrite (ee_char args ind c ch Hn H).
Qed.

(* there the scan step of C20 is a step of the backward scan; None: c is a top-level quote, comma
   or bar, which bscan refuses, and nothing is claimed *)
Lemma pll_scan_step_char args ind c nq rd sd :
  tchars args -> nth_error args ind = Some c ->
  match bscan [c] rd sd with
  | Some (rd', sd') => pll_scan_step args ind false nq rd sd = Some (false, nq, rd', sd')
  | None => True
  end.
Proof.
  intros Hn Hc. pose proof (fun ch => ee_char args ind c ch Hn Hc) as E. unfold pll_scan_step.
  rewrite (E c_rbr), (E c_lbr), (E c_rpar), (E c_lpar), (E c_dquote), (E c_comma), (E c_bar).
  cbn [bscan dscan].
  destruct (c =? c_rbr); [reflexivity|]. destruct (c =? c_lbr); [reflexivity|].
  destruct (c =? c_rpar); [reflexivity|]. destruct (c =? c_lpar); [reflexivity|].
  destruct ((rd =? 0)%Z && (sd =? 0)%Z); [|reflexivity]. unfold bstop. cbn [andb].
  destruct (c =? c_dquote); [exact I|]. destruct (c =? c_comma); [exact I|].
  destruct (c =? c_bar); [exact I|reflexivity].
Qed.

(* crossing a stretch without top-level separators *)
Lemma pll_from_cross rt args seg : forall pre suf n list e vbar nq rd sd rd' sd',
  args = pre ++ seg ++ suf -> tchars args -> n = (length pre + length seg)%nat ->
  bscan (rev seg) rd sd = Some (rd', sd') ->
  pll_from rt args n (mkPll list e vbar false nq rd sd) =
  pll_from rt args (length pre) (mkPll list e vbar false nq rd' sd').
Proof.
  induction seg as [|c seg IH] using rev_ind; intros pre suf n list e vbar nq rd sd rd' sd' Ha Hn Hlen Hb.
  - inversion Hb; subst. cbn [length]. now rewrite Nat.add_0_r.
  - rewrite rev_app_distr in Hb. unfold bscan in Hb. rewrite dscan_app in Hb.
    destruct (dscan _ _ _ _ _ (rev [c]) rd sd) as [[rd1 sd1]|] eqn:E1; [|discriminate].
    rewrite <- app_assoc in Ha. cbn [app] in Ha.
    assert (Hc : nth_error args (length pre + length seg) = Some c).
    { rewrite Ha, app_assoc, <- app_length. apply nth_error_mid. }
    assert (Hlt : (length pre + length seg < length args)%nat).
    { apply nth_error_Some. rewrite Hc. discriminate. }
    replace n with (S (length pre + length seg)) by (rewrite Hlen, app_length; cbn [length]; lia).
    pose proof (pll_scan_step_char args _ c nq rd sd Hn Hc) as P. unfold bscan in P. cbn [rev app] in E1.
    rewrite E1 in P. rewrite pll_from_S, (pll_step_plain rt args _ list e vbar false nq rd sd _ _ _ _ Hlt P).
    cbn [pbind pok]. now apply (IH pre (c :: suf)).
Qed.

(* from the end index down to the separator c: the stretch M between them is crossed, then
   comes the step at c *)
Lemma pll_from_sep rt args A c M B list vbar nq :
  args = A ++ c :: M ++ B -> tchars args -> crossed M ->
  pll_from rt args (length A + 1 + length M) (mkPll list (length A + 1 + length M) vbar false nq 0%Z 0%Z) =
  (dop st' <- pll_step rt args (length A) (mkPll list (length A + 1 + length M) vbar false nq 0%Z 0%Z);
   pll_from rt args (length A) st').
Proof.
  intros Ha Hn [_ Hb].
  rewrite (pll_from_cross rt args M (A ++ [c]) B _ list _ vbar nq 0%Z 0%Z 0%Z 0%Z);
    [|now rewrite Ha, <- app_assoc|exact Hn|rewrite app_length; cbn [length]; lia|now apply Hb].
  rewrite app_length. cbn [length]. rewrite Nat.add_1_r. apply pll_from_S.
Qed.

Lemma slice_middle_eq (v f s r : str) (c : N) :
  v = f ++ c :: s ++ r -> slice v (length f + 1) (length f + 1 + length s) = Ok s.
Proof. intros ->. apply slice_middle. Qed.

(* trimming a piece with a blank before and possibly one after *)
Lemma trim_padded p ws : good p -> ws = [] \/ ws = [32] ->
  trim (p ++ ws) = p /\ trim (32 :: p ++ ws) = p.
Proof.
  intros H [->| ->].
  - rewrite app_nil_r. rewrite trim_cons_white by reflexivity. split; now apply good_trimmed.
  - rewrite trim_cons_white by reflexivity. rewrite trim_app_white by reflexivity.
    split; now apply good_trimmed.
Qed.

Lemma crossed_padded p ws : good p -> ws = [] \/ ws = [32] -> crossed (p ++ ws) /\ crossed (32 :: p ++ ws).
Proof.
  intros H Hws.
  assert (Hw : crossed ws) by (apply crossed_pchars; destruct Hws as [->| ->]; repeat constructor).
  pose proof (crossed_app p ws (g_scan p H) Hw) as Hc. split; [exact Hc|].
  apply (crossed_app [32]); [apply crossed_pchars; repeat constructor|exact Hc].
Qed.

Lemma check_quotes_zero s : check_quotes s 0 = Ok false.
Proof. reflexivity. Qed.

Lemma join_strs_snoc sep ps p : ps <> [] ->
  join_strs sep (ps ++ [p]) = join_strs sep ps ++ sep ++ p.
Proof.
  induction ps as [|q ps IH]; intros Hne; [now elim Hne|].
  destruct ps as [|q2 ps'].
  - reflexivity.
  - change ((q :: q2 :: ps') ++ [p]) with (q :: (q2 :: ps') ++ [p]).
    change ((q2 :: ps') ++ [p]) with (q2 :: ps' ++ [p]) at 1.
    rewrite join_strs_cons2. change (q2 :: ps' ++ [p]) with ((q2 :: ps') ++ [p]).
    rewrite IH by discriminate. rewrite join_strs_cons2. now rewrite <- !app_assoc.
Qed.

Lemma list_nodes_app ts1 ts2 last : list_nodes (ts1 ++ ts2) last = list_nodes ts1 (list_nodes ts2 last).
Proof. unfold list_nodes. apply fold_right_app. Qed.

Lemma link_front_nodes t list : is_list list = true ->
  link_front t false list = Ok (list_nodes [t] list).
Proof. destruct list; try discriminate. reflexivity. Qed.

Lemma list_nodes_is_list ts last : is_list last = true -> is_list (list_nodes ts last) = true.
Proof. intros H. destruct ts; [exact H|reflexivity]. Qed.

(* the step at a top-level comma links the element that lies between it and the end index *)
Lemma pll_step_comma rt args A M B list vbar t :
  args = A ++ c_comma :: M ++ B -> tchars args -> trim M <> [] -> rt (trim M) = Ok (POk t) ->
  is_list list = true ->
  pll_step rt args (length A) (mkPll list (length A + 1 + length M) vbar false 0 0%Z 0%Z) =
  pok (mkPll (list_nodes [t] list) (length A) vbar false 0 0%Z 0%Z).
Proof.
  intros Ha Hn Hne Ht Hl.
  unfold pll_step.
  rewrite !(equal_escape_char args _ c_comma _ Hn) by (rewrite Ha; apply nth_error_mid). cbn [bind].
  change (c_comma =? c_rbr) with false. change (c_comma =? c_lbr) with false.
  change (c_comma =? c_rpar) with false. change (c_comma =? c_lpar) with false.
  change ((0 =? 0)%Z && (0 =? 0)%Z) with true. change (c_comma =? c_dquote) with false.
  change (c_comma =? c_comma) with true. cbv iota.
  rewrite (slice_middle_eq args A M B c_comma Ha). cbn [bind].
  destruct (trim M) as [|c0 r0] eqn:Et; [now elim Hne|]. rewrite <- Et in *.
  rewrite check_quotes_zero. cbn [bind]. rewrite Ht. cbn [pbind].
  now rewrite (link_front_nodes t list Hl).
Qed.

(* the elements, from the last to the first *)
Lemma pll_from_pieces rt : forall ps ts args ws suf list vbar,
  ps <> [] -> Forall good ps -> Forall2 (fun p t => rt p = Ok (POk t)) ps ts ->
  ws = [] \/ ws = [32] ->
  args = join_strs sep_comma ps ++ ws ++ suf -> tchars args ->
  is_list list = true ->
  pll_from rt args (length (join_strs sep_comma ps ++ ws))
    (mkPll list (length (join_strs sep_comma ps ++ ws)) vbar false 0 0%Z 0%Z) =
  Ok (POk (list_nodes ts list)).
Proof.
  induction ps as [|p ps IH] using rev_ind;
    intros ts args ws suf list vbar Hne Hg Hp Hws Ha Hn Hl; [now elim Hne|].
  apply Forall_app in Hg as [Hgs Hgp]. inversion Hgp as [|x l Hgood _]; subst x l.
  apply Forall2_app_inv_l in Hp as (ts' & tl & Hp' & Hpl & ->).
  inversion Hpl as [|x t l l' Hpt Hnil]; subst. inversion Hnil; subst.
  destruct (trim_padded p ws Hgood Hws) as [Et1 Et2].
  destruct (crossed_padded p ws Hgood Hws) as [Hc1 Hc2].
  pose proof (g_ne p Hgood) as Hpne.
  destruct ps as [|q ps'] eqn:Eps.
  - (* the first element: the scan crosses it, the final step links it *)
    inversion Hp'; subst. cbn [app join_strs] in *.
    rewrite (pll_from_cross rt _ (p ++ ws) [] suf _ list _ vbar 0 0%Z 0%Z 0%Z 0%Z);
      [|now rewrite <- app_assoc|exact Hn|reflexivity|now apply Hc1].
    cbn [length pll_from]. unfold pll_final. cbn [pll_end pll_nq pll_list].
    rewrite app_assoc, slice_prefix. cbn [bind]. rewrite Et1.
    destruct p as [|c0 p0] eqn:Ep; [now elim Hpne|]. rewrite <- Ep in *.
    rewrite check_quotes_zero. cbn [bind]. rewrite Hpt. cbn [pbind].
    now rewrite (link_front_nodes t list Hl).
  - rewrite <- Eps in *.
    assert (Hps : ps <> []) by (rewrite Eps; discriminate).
    rewrite join_strs_snoc in * by exact Hps.
    set (J := join_strs sep_comma ps) in *.
    remember ((J ++ sep_comma ++ p) ++ ws ++ suf) as args eqn:Ha.
    assert (Ha' : args = J ++ c_comma :: (32 :: p ++ ws) ++ suf).
    { rewrite Ha. unfold sep_comma. cbn [app]. now rewrite <- !app_assoc. }
    replace (length ((J ++ sep_comma ++ p) ++ ws)) with (length J + 1 + length (32%N :: p ++ ws))%nat
      by (rewrite !app_length; cbn [length sep_comma]; rewrite app_length; lia).
    rewrite (pll_from_sep rt args J c_comma _ suf list vbar 0 Ha' Hn Hc2).
    rewrite (pll_step_comma rt args J _ suf list vbar t Ha' Hn); rewrite ?Et2; try assumption.
    cbn [pbind pok]. rewrite list_nodes_app.
    pose proof (IH ts' args [] _ (list_nodes [t] list) vbar Hps Hgs Hp' (or_introl eq_refl) Ha' Hn
                  (list_nodes_is_list [t] list Hl)) as HIH.
    now rewrite app_nil_r in HIH.
Qed.

Lemma pll_body_from rt body : body <> [] ->
  parse_linked_list_body rt (c_lbr :: body ++ [c_rbr]) =
  pll_from rt body (length body) (mkPll empty_list (length body) false false 0 0%Z 0%Z).
Proof.
  intros Hne. rewrite pll_body_unfold by exact Hne. destruct body; [now elim Hne|].
  cbn [length pll_from]. now rewrite Nat.sub_succ, Nat.sub_0_r.
Qed.

Lemma make_term_list rt ra body :
  make_term rt ra (c_lbr :: body ++ [c_rbr]) = parse_linked_list_body rt (c_lbr :: body ++ [c_rbr]).
Proof.
  unfold make_term. rewrite list_text_trimmed.
  destruct (classify_term (c_lbr :: body ++ [c_rbr])) as [[hd hnd] hp]. cbv iota.
  change (c_lbr =? c_dollar) with false. cbv iota.
  assert (Hlen : (2 <=? length (c_lbr :: body ++ [c_rbr]))%nat = true).
  { apply Nat.leb_le. cbn [length]. rewrite app_length. cbn [length]. lia. }
  rewrite Hlen. change (c_lbr =? c_dquote) with false. cbv iota.
  change (c_lbr :: body ++ [c_rbr]) with ((c_lbr :: body) ++ [c_rbr]) at 1. rewrite last_last.
  change ((c_lbr =? c_lbr) && (c_rbr =? c_rbr)) with true. reflexivity.
Qed.

Lemma parse_term_good_list fuel body :
  good (c_lbr :: body ++ [c_rbr]) ->
  parse_term (S fuel) (c_lbr :: body ++ [c_rbr]) =
  parse_linked_list_body (parse_term fuel) (c_lbr :: body ++ [c_rbr]).
Proof.
  intros Hgood. cbn [parse_term]. rewrite parse_term_body_plain.
  - rewrite list_text_trimmed. apply make_term_list.
  - now apply good_no_arith.
  - intros tl E. rewrite list_text_trimmed in E. discriminate E.
Qed.

Theorem parse_term_list : forall fuel ps ts,
  Forall good ps -> Forall2 (fun p t => parse_term fuel p = Ok (POk t)) ps ts ->
  parse_term (S fuel) (list_text ps) = Ok (POk (make_list_of_terms ts)).
Proof.
  intros fuel ps ts Hg Hp. pose proof (good_list ps Hg) as Hgood. unfold list_text in *.
  rewrite parse_term_good_list by exact Hgood.
  destruct ps as [|p ps'] eqn:Eps.
  - inversion Hp; subst. reflexivity.
  - rewrite <- Eps in *. assert (Hne : ps <> []) by (rewrite Eps; discriminate).
    destruct (join_ends ps Hne Hg) as (Hbne & _ & _).
    rewrite pll_body_from by exact Hbne.
    pose proof (pll_from_pieces (parse_term fuel) ps ts (join_strs sep_comma ps) [] [] empty_list false
                  Hne Hg Hp (or_introl eq_refl) ltac:(now rewrite !app_nil_r)
                  (i_chars _ (inner_join ps Hg)) eq_refl) as H.
    now rewrite app_nil_r in H.
Qed.

Lemma simple_var_not_anon v : simple_var v = true -> str_eqb v [c_dollar; c_underscore] = false.
Proof.
  intro Hs. destruct (str_eqb v [c_dollar; c_underscore]) eqn:E; [|reflexivity].
  apply str_eqb_eq in E. subst v. discriminate Hs.
Qed.

Lemma make_logic_var_simple v : simple_var v = true -> make_logic_var v = POk (TVar 0 v).
Proof.
  intros Hs. unfold make_logic_var. rewrite (word_trimmed v (simple_var_word v Hs)).
  destruct v as [|d [|c r]]; try discriminate. cbn [simple_var] in Hs.
  apply andb_true_iff in Hs as [Hs _]. apply andb_true_iff in Hs as [Hd Hc].
  rewrite Hd. rewrite (lower_upper_alphabetic c Hc). reflexivity.
Qed.

(* what the `|` branch makes of the tail text *)
Definition tail_parse (v : str) : presult term :=
  if str_eqb v [c_dollar; c_underscore] then POk TAnon else make_logic_var v.

Theorem parse_term_list_bar_gen : forall fuel ps ts v tvar,
  ps <> [] -> Forall good ps -> Forall2 (fun p t => parse_term fuel p = Ok (POk t)) ps ts ->
  word v -> tail_parse v = POk tvar ->
  parse_term (S fuel) (list_text_bar ps v) = Ok (POk (list_nodes ts (tail_node tvar))).
Proof.
  intros fuel ps ts v tvar Hne Hg Hp Hvw Hv.
  pose proof (good_word v Hvw) as Hvg.
  pose proof (good_list_bar ps v Hg Hvg) as Hgood. unfold list_text_bar in *.
  rewrite parse_term_good_list by exact Hgood.
  set (J := join_strs sep_comma ps) in *.
  set (args := J ++ sep_bar ++ v) in *.
  assert (Hargs : tchars args).
  { pose proof (g_chars _ Hgood) as Hc. inversion Hc as [|x l _ Hc']; subst.
    apply Forall_app in Hc' as [Hc' _]. exact Hc'. }
  rewrite pll_body_from by (unfold args, sep_bar; destruct J; discriminate).
  assert (Ha : args = (J ++ [32]) ++ c_bar :: (32 :: v) ++ []).
  { unfold args, sep_bar. rewrite app_nil_r, <- app_assoc. reflexivity. }
  assert (Ha4 : args = J ++ [32] ++ 124 :: 32 :: v) by reflexivity.
  destruct (crossed_padded v [] Hvg (or_introl eq_refl)) as [_ Hcv]. rewrite app_nil_r in Hcv.
  replace (length args) with (length (J ++ [32%N]) + 1 + length (32%N :: v))%nat
    by (unfold args, sep_bar; rewrite !app_length; cbn [length]; lia).
  rewrite (pll_from_sep _ args _ c_bar _ [] empty_list false 0 Ha Hargs Hcv).
  unfold pll_step.
  rewrite !(equal_escape_char args _ c_bar _ Hargs) by (rewrite Ha; apply nth_error_mid). cbn [bind].
  change (c_bar =? c_rbr) with false. change (c_bar =? c_lbr) with false.
  change (c_bar =? c_rpar) with false. change (c_bar =? c_lpar) with false.
  change ((0 =? 0)%Z && (0 =? 0)%Z) with true. change (c_bar =? c_dquote) with false.
  change (c_bar =? c_comma) with false. change (c_bar =? c_bar) with true. cbv iota.
  rewrite (slice_middle_eq args _ _ _ _ Ha). cbn [bind].
  rewrite trim_cons_white, (word_trimmed v Hvw) by reflexivity.
  destruct v as [|v0 v1] eqn:Ev; [now elim (g_ne _ Hvg)|]. rewrite <- Ev in *.
  unfold tail_parse in Hv. rewrite Hv.
  change (link_front tvar true empty_list) with (Ok (tail_node tvar)). cbn [bind pbind pok].
  apply (pll_from_pieces (parse_term fuel) ps ts args [32] (124 :: 32 :: v) (tail_node tvar) true
           Hne Hg Hp (or_intror eq_refl)); [exact Ha4|exact Hargs|reflexivity].
Qed.

Lemma tail_parse_var v : simple_var v = true -> tail_parse v = POk (TVar 0 v).
Proof.
  intros Hv. unfold tail_parse. now rewrite (simple_var_not_anon v Hv), (make_logic_var_simple v Hv).
Qed.

Definition anon_text : str := [c_dollar; c_underscore].

Lemma anon_word : word anon_text.
Proof. split; [discriminate|]. split; [repeat constructor|discriminate]. Qed.

(* the same for the printed texts *)
Corollary parse_term_show_list : forall fuel ts,
  non_nil_terms ts ->
  Forall (fun t => good (show_term t)) ts ->
  Forall (fun t => parse_term fuel (show_term t) = Ok (POk t)) ts ->
  parse_term (S fuel) (show_term (make_list_of_terms ts)) = Ok (POk (make_list_of_terms ts)).
Proof.
  intros fuel ts Hn Hg Hp. rewrite show_list_plain by exact Hn.
  apply parse_term_list; [now apply Forall_map_good|now apply Forall2_map_parse].
Qed.

(* v: a term that the `|` branch reads back from its text, $V or $_ *)
Corollary parse_term_show_list_tail : forall fuel ts v,
  ts <> [] -> non_nil_terms ts ->
  Forall (fun t => good (show_term t)) ts ->
  Forall (fun t => parse_term fuel (show_term t) = Ok (POk t)) ts ->
  is_nil v = false -> word (show_term v) -> tail_parse (show_term v) = POk v ->
  parse_term (S fuel) (show_term (list_nodes ts (tail_node v))) = Ok (POk (list_nodes ts (tail_node v))).
Proof.
  intros fuel ts v Hne Hn Hg Hp Hv Hw Ht.
  rewrite show_list_tail by assumption.
  apply parse_term_list_bar_gen; [|now apply Forall_map_good|now apply Forall2_map_parse|exact Hw|exact Ht].
  destruct ts; [now elim Hne|discriminate].
Qed.

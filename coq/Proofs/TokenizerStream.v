(* An index-free ("stream") presentation of the main loop of `tokenize` and of
   `group_tokens_to`, and the refinement lemmas that connect them with the index-based
   model (Model/Tokenizer.v).  All later proofs reason about the stream versions.

   The configuration of the stream tokenizer is (rest, w, previous, stk, tokens) with
   rest = chrs[i..]  and  w = chrs[start_index..i]. *)
From Coq Require Import Lia.
From Suiron Require Import Model.Tokenizer.
Open Scope N_scope.

Record scfg := mkS {
  s_rest : str; s_w : str; s_prev : N; s_stk : parse_stack; s_toks : list token }.

Definition sstep (c : N) (rest' w : str) (previous : N) (stk : parse_stack) (tokens : list token)
  : presult scfg :=
  let top := peek stk in
  if no_esc c ch_quote previous then
    match quote_loop rest' 0 ch_hash c with
    | (Some k, ch') => POk (mkS (skipn (S k) rest') (w ++ c :: firstn (S k) rest') ch' stk tokens)
    | (None, ch') => POk (mkS rest' (w ++ [c]) ch' stk tokens)
    end
  else if no_esc c ch_lparen previous then
    if letter_number_hyphen previous then POk (mkS rest' (w ++ [c]) c (TTComplex :: stk) tokens)
    else POk (mkS rest' [] c (TTGroup :: stk) (tokens ++ [make_leaf_token [ch_lparen]]))
  else if no_esc c ch_rparen previous then
    if tt_eqb top TTEmpty then PErr
    else
      let '(top, stk) := pop stk in
      if tt_eqb top TTGroup then
        POk (mkS rest' (w ++ [c]) c stk
                 (tokens ++ [make_leaf_token w] ++ [make_leaf_token [ch_rparen]]))
      else if negb (tt_eqb top TTComplex) then PErr
      else POk (mkS rest' (w ++ [c]) c stk tokens)
  else if no_esc c ch_lbracket previous then
    POk (mkS rest' (w ++ [c]) c (TTLinkedList :: stk) tokens)
  else if no_esc c ch_rbracket previous then
    if tt_eqb top TTEmpty then PErr
    else
      let '(top, stk) := pop stk in
      if negb (tt_eqb top TTLinkedList) then PErr
      else POk (mkS rest' (w ++ [c]) c stk tokens)
  else
    if negb (tt_eqb top TTComplex) && negb (tt_eqb top TTLinkedList) then
      if invalid_between_terms c then PErr
      else if no_esc c ch_comma previous then
        POk (mkS rest' [] c stk (tokens ++ [make_leaf_token w] ++ [make_leaf_token [ch_comma]]))
      else if no_esc c ch_semicolon previous then
        POk (mkS rest' [] c stk (tokens ++ [make_leaf_token w] ++ [make_leaf_token [ch_semicolon]]))
      else POk (mkS rest' (w ++ [c]) c stk tokens)
    else POk (mkS rest' (w ++ [c]) c stk tokens).

Definition sstep_cfg (cf : scfg) : option (presult scfg) :=
  match s_rest cf with
  | [] => None
  | c :: rest' => Some (sstep c rest' (s_w cf) (s_prev cf) (s_stk cf) (s_toks cf))
  end.

Fixpoint sloop (fuel : nat) (cf : scfg) : res (presult scfg) :=
  match fuel with
  | O => OutOfFuel
  | S fuel' =>
      match sstep_cfg cf with
      | None => Ok (POk cf)
      | Some PErr => Ok PErr
      | Some (POk cf') => sloop fuel' cf'
      end
  end.

Definition stokenize (fuel : nat) (to_parse : str) : res (presult (list token)) :=
  let s := tk_trim to_parse in
  match s with
  | [] => Ok PErr
  | _ =>
      do r <- sloop fuel (mkS s [] ch_hash [] []);
      match r with
      | PErr => Ok PErr
      | POk cf =>
          match s_stk cf with
          | _ :: _ => Ok PErr
          | [] =>
              match s_w cf with
              | [] => Ok (POk (s_toks cf))
              | w => Ok (POk (s_toks cf ++ [make_leaf_token w]))
              end
          end
      end
  end.

Lemma nth_error_skipn_hd {A} (l : list A) i c :
  nth_error l i = Some c -> skipn i l = c :: skipn (S i) l.
Proof.
  revert i; induction l as [|x l IH]; intros [|i] H; simpl in *; try discriminate.
  - now inversion H.
  - now apply IH.
Qed.

Lemma skipn_skipn' {A} (a b : nat) (l : list A) : skipn a (skipn b l) = skipn (b + a) l.
Proof.
  revert l; induction b as [|b IH]; intros l; simpl; [reflexivity|].
  destruct l as [|x l]; [now rewrite skipn_nil|]. apply IH.
Qed.

Lemma firstn_add {A} (d n : nat) (m : list A) :
  firstn (d + n) m = firstn d m ++ firstn n (skipn d m).
Proof.
  revert m; induction d as [|d IH]; intros m; simpl; [reflexivity|].
  destruct m as [|x m]; simpl; [now rewrite firstn_nil|]. now rewrite IH.
Qed.

Lemma slice_extend {A} (l : list A) start i n :
  (start <= i)%nat ->
  firstn (i + n - start) (skipn start l) =
  firstn (i - start) (skipn start l) ++ firstn n (skipn i l).
Proof.
  intros Hle.
  replace (i + n - start)%nat with ((i - start) + n)%nat by lia.
  rewrite firstn_add, skipn_skipn'. do 3 f_equal. lia.
Qed.

Lemma slice_ok chrs a b :
  (a <= b)%nat -> (b <= length chrs)%nat ->
  slice chrs a b = Ok (firstn (b - a) (skipn a chrs)).
Proof.
  intros H1 H2. unfold slice.
  apply Nat.leb_le in H1, H2. now rewrite H1, H2.
Qed.

Lemma slice_len chrs a b :
  (a <= b)%nat -> (b <= length chrs)%nat -> exists r, slice chrs a b = Ok r /\ length r = (b - a)%nat.
Proof.
  intros H1 H2. rewrite slice_ok by assumption. eexists. split; [reflexivity|].
  rewrite firstn_length, skipn_length. lia.
Qed.

Lemma quote_loop_shift rest j p c :
  quote_loop rest j p c =
  (match fst (quote_loop rest 0 p c) with Some k => Some (j + k)%nat | None => None end,
   snd (quote_loop rest 0 p c)).
Proof.
  revert j p c. induction rest as [|x rest IH]; intros j p c; simpl.
  - reflexivity.
  - destruct (no_esc x ch_quote p); simpl.
    + now rewrite Nat.add_0_r.
    + rewrite (IH (S j)), (IH 1%nat).
      destruct (fst (quote_loop rest 0 x x)); simpl; [f_equal; f_equal; lia | reflexivity].
Qed.

Lemma quote_loop_bound rest p c k ch' :
  quote_loop rest 0 p c = (Some k, ch') -> (k < length rest)%nat.
Proof.
  revert p c k ch'. induction rest as [|x rest IH]; intros p c k ch' H; simpl in *.
  - discriminate.
  - destruct (no_esc x ch_quote p).
    + inversion H; subst. lia.
    + rewrite quote_loop_shift in H.
      destruct (quote_loop rest 0 x x) as [[k'|] c'] eqn:E; simpl in H; inversion H; subst.
      apply IH in E. lia.
Qed.

Definition cfg_of (chrs : str) (st : tk_state) : scfg :=
  mkS (skipn (tk_i st) chrs) (firstn (tk_i st - tk_start st) (skipn (tk_start st) chrs))
      (tk_previous st) (tk_stk st) (tk_tokens st).

Definition valid (chrs : str) (st : tk_state) : Prop :=
  (tk_start st <= tk_i st)%nat /\ (tk_i st <= length chrs)%nat.

Lemma w_reset (chrs : str) i : firstn (i - i) (skipn i chrs) = [].
Proof. now rewrite Nat.sub_diag. Qed.

(* the slice after reading chrs[i] and k more characters *)
Lemma w_grow (chrs : str) start i c k :
  (start <= i)%nat -> nth_error chrs i = Some c ->
  firstn (i + S k - start) (skipn start chrs) =
  firstn (i - start) (skipn start chrs) ++ c :: firstn k (skipn (S i) chrs).
Proof.
  intros Hle Hn. rewrite slice_extend by exact Hle.
  rewrite (nth_error_skipn_hd _ _ _ Hn). reflexivity.
Qed.

(* the index-based step goes on, past index i, with a state whose configuration is cf' *)
Definition goes_on chrs (i : nat) (r : res (presult tk_state)) (cf' : scfg) : Prop :=
  exists st', r = Ok (POk st') /\ cf' = cfg_of chrs st' /\ valid chrs st' /\ (i < tk_i st')%nat.

(* the two ways to go on: the slice grows by chrs[i] and k more characters (k = 0 but for a
   quoted text), or the next slice starts behind chrs[i] *)
Lemma grow_ok chrs i start prev c stk toks k prev' stk' toks' :
  valid chrs (mkTk i start prev stk toks) -> nth_error chrs i = Some c -> (k + i < length chrs)%nat ->
  goes_on chrs i (Ok (POk (mkTk (k + (i + 1)) start prev' stk' toks')))
    (mkS (skipn k (skipn (S i) chrs))
         (s_w (cfg_of chrs (mkTk i start prev stk toks)) ++ c :: firstn k (skipn (S i) chrs)) prev' stk' toks').
Proof.
  intros [Hsi Hil] Hn Hk. cbn [tk_i tk_start] in *.
  eexists. split; [reflexivity|].
  unfold cfg_of, valid. cbn [tk_i tk_start tk_previous tk_stk tk_tokens s_w].
  replace (k + (i + 1))%nat with (i + S k)%nat by lia.
  rewrite (w_grow chrs start i c k Hsi Hn), skipn_skipn'.
  replace (S i + k)%nat with (i + S k)%nat by lia. repeat split; lia.
Qed.

Lemma reset_ok chrs i start prev c stk toks prev' stk' toks' :
  valid chrs (mkTk i start prev stk toks) -> nth_error chrs i = Some c ->
  goes_on chrs i (Ok (POk (mkTk (i + 1) (i + 1) prev' stk' toks'))) (mkS (skipn (S i) chrs) [] prev' stk' toks').
Proof.
  intros [Hsi Hil] Hn. cbn [tk_i tk_start] in *.
  assert (Hlt : (i < length chrs)%nat) by (apply nth_error_Some; congruence).
  eexists. split; [reflexivity|].
  unfold cfg_of, valid. cbn [tk_i tk_start tk_previous tk_stk tk_tokens].
  rewrite w_reset, Nat.add_1_r. repeat split; lia.
Qed.

Lemma step_refines chrs st :
  valid chrs st -> (tk_i st < length chrs)%nat ->
  exists c rest', s_rest (cfg_of chrs st) = c :: rest' /\
  match sstep c rest' (s_w (cfg_of chrs st)) (tk_previous st) (tk_stk st) (tk_tokens st) with
  | POk cf' => goes_on chrs (tk_i st) (tk_step chrs st) cf'
  | PErr => tk_step chrs st = Ok PErr
  end.
Proof.
  intros HV Hlt. destruct st as [i start previous stk tokens]. cbn [tk_i tk_previous tk_stk tk_tokens] in *.
  destruct (nth_error chrs i) as [c|] eqn:Hn.
  2:{ apply nth_error_None in Hn. lia. }
  exists c, (skipn (S i) chrs). split; [now apply nth_error_skipn_hd|].
  pose proof (fun p' stk' toks' => grow_ok chrs i start previous c stk tokens 0 p' stk' toks' HV Hn Hlt) as Hnext.
  pose proof (fun p' stk' toks' => reset_ok chrs i start previous c stk tokens p' stk' toks' HV Hn) as Hreset.
  assert (Hsl : slice chrs start i = Ok (s_w (cfg_of chrs (mkTk i start previous stk tokens)))).
  { destruct HV as [Hsi Hil]. cbn [tk_i tk_start] in *. now rewrite slice_ok by lia. }
  set (w := s_w (cfg_of chrs (mkTk i start previous stk tokens))) in *.
  unfold sstep, tk_step. cbn [tk_i tk_start tk_previous tk_stk tk_tokens]. rewrite Hn.
  destruct (no_esc c ch_quote previous).
  { rewrite (quote_loop_shift (skipn (i + 1) chrs) (i + 1)). rewrite (Nat.add_1_r i).
    destruct (quote_loop (skipn (S i) chrs) 0 ch_hash c) as [[k|] ch'] eqn:Eq; cbn [fst snd]; [|apply Hnext].
    pose proof (quote_loop_bound _ _ _ _ _ Eq) as Hk. rewrite skipn_length in Hk.
    replace (S i + k + 1)%nat with (S k + (i + 1))%nat by lia.
    apply (grow_ok chrs i start previous c stk tokens (S k)); [exact HV|exact Hn|lia]. }
  destruct (no_esc c ch_lparen previous).
  { destruct (letter_number_hyphen previous); [apply Hnext|apply Hreset]. }
  destruct (no_esc c ch_rparen previous).
  { destruct (tt_eqb (peek stk) TTEmpty); [reflexivity|].
    destruct (pop stk) as [top stk'].
    destruct (tt_eqb top TTGroup); [rewrite Hsl; apply Hnext|].
    destruct (negb (tt_eqb top TTComplex)); [reflexivity|apply Hnext]. }
  destruct (no_esc c ch_lbracket previous); [apply Hnext|].
  destruct (no_esc c ch_rbracket previous).
  { destruct (tt_eqb (peek stk) TTEmpty); [reflexivity|].
    destruct (pop stk) as [top stk'].
    destruct (negb (tt_eqb top TTLinkedList)); [reflexivity|apply Hnext]. }
  destruct (negb (tt_eqb (peek stk) TTComplex) && negb (tt_eqb (peek stk) TTLinkedList)); [|apply Hnext].
  destruct (invalid_between_terms c); [reflexivity|].
  destruct (no_esc c ch_comma previous); [rewrite Hsl; apply Hreset|].
  destruct (no_esc c ch_semicolon previous); [rewrite Hsl; apply Hreset|].
  apply Hnext.
Qed.

Lemma loop_refines fuel chrs : forall st,
  valid chrs st ->
  match sloop fuel (cfg_of chrs st) with
  | Ok (POk cf') => exists st', tk_loop fuel chrs st = Ok (POk st') /\ cf' = cfg_of chrs st' /\
                                valid chrs st' /\ tk_i st' = length chrs
  | Ok PErr => tk_loop fuel chrs st = Ok PErr
  | Panic => False
  | OutOfFuel => tk_loop fuel chrs st = OutOfFuel
  end.
Proof.
  induction fuel as [|fuel IH]; intros st HV; simpl; [reflexivity|].
  destruct (tk_i st <? length chrs)%nat eqn:Hlt.
  - apply Nat.ltb_lt in Hlt.
    destruct (step_refines _ _ HV Hlt) as (c & rest' & Hrest & Hstep).
    unfold sstep_cfg. rewrite Hrest. cbn [cfg_of s_w s_prev s_stk s_toks] in *.
    destruct (sstep c rest' _ (tk_previous st) (tk_stk st) (tk_tokens st)) as [cf'|].
    + destruct Hstep as (st' & Hs & -> & HV' & _). rewrite Hs; simpl. now apply IH.
    + rewrite Hstep; simpl. reflexivity.
  - apply Nat.ltb_ge in Hlt. destruct HV as [Hsi Hil].
    assert (Hi : tk_i st = length chrs) by lia.
    unfold sstep_cfg. cbn [cfg_of s_rest]. rewrite Hi, skipn_all.
    exists st. rewrite Hi. repeat split; try lia.
Qed.

Theorem tokenize_stream fuel s : tokenize fuel s = stokenize fuel s.
Proof.
  unfold tokenize, stokenize.
  destruct (tk_trim s) as [|c0 chrs0] eqn:Et; [reflexivity|].
  change (length (c0 :: chrs0) =? 0)%nat with false. cbv iota.
  set (chrs := c0 :: chrs0).
  assert (HV : valid chrs (mkTk 0 0 ch_hash [] [])) by (split; cbn; lia).
  pose proof (loop_refines fuel chrs _ HV) as H.
  change (cfg_of chrs (mkTk 0 0 ch_hash [] [])) with (mkS chrs [] ch_hash [] []) in H.
  destruct (sloop fuel (mkS chrs [] ch_hash [] [])) as [[cf'|]| |]; cbn [bind].
  - destruct H as (st' & Hl & -> & [Hsi Hil] & Hi).
    rewrite Hl; cbn [bind cfg_of s_stk s_w s_toks].
    destruct (tk_stk st') as [|x stk]; [|reflexivity].
    change (0 <? length (@nil token_type))%nat with false. cbv iota.
    rewrite Hi in *.
    assert (Hlt : (length chrs <? tk_start st')%nat = false) by (apply Nat.ltb_ge; lia).
    rewrite Hlt, slice_ok by lia.
    (* the last slice is empty exactly when start_index has reached the end *)
    assert (Hlen : length (firstn (length chrs - tk_start st') (skipn (tk_start st') chrs)) =
                   (length chrs - tk_start st')%nat).
    { rewrite firstn_length, skipn_length. lia. }
    destruct (firstn (length chrs - tk_start st') (skipn (tk_start st') chrs)) as [|x w];
      cbn [length] in Hlen; rewrite <- Hlen; reflexivity.
  - rewrite H. reflexivity.
  - contradiction.
  - rewrite H. reflexivity.
Qed.

(* group_tokens_to as a function of the remaining tokens.  Returns the group and the
   remaining tokens FROM the index at which the group ended (so the first of them is its
   right parenthesis); the caller drops that one and one more (`index = end + 1; index += 1`). *)
Fixpoint gts (fuel : nat) (rest : list token) (acc : list token) : res (token * list token) :=
  match fuel with
  | O => OutOfFuel
  | S fuel' =>
      match rest with
      | [] => Ok (Branch TTGroup acc, [])
      | tok :: rest' =>
          if tt_eqb (get_type tok) TTLParen then
            do te <- gts fuel' rest' [];
            let '(t, rem) := te in
            gts fuel' (skipn 2 rem) (acc ++ [t])
          else if tt_eqb (get_type tok) TTRParen then Ok (Branch TTGroup acc, rest)
          else gts fuel' rest' (acc ++ [tok])
      end
  end.

(* skipn stays folded: `simpl` would otherwise unfold `skipn (S index) tokens` in the goal and
   the induction hypothesis, stated with skipn, would not match *)
Local Opaque skipn.
Lemma gt_loop_stream fuel tokens : forall index acc,
  match gts fuel (skipn index tokens) acc with
  | Ok (t, rem) => exists e, gt_loop fuel tokens index acc = Ok (t, e) /\ rem = skipn e tokens
  | Panic => False
  | OutOfFuel => gt_loop fuel tokens index acc = OutOfFuel
  end.
Proof.
  induction fuel as [|fuel IH]; intros index acc; simpl; [reflexivity|].
  destruct (index <? length tokens)%nat eqn:Hlt.
  - apply Nat.ltb_lt in Hlt.
    destruct (nth_error tokens index) as [tok|] eqn:Hn.
    2:{ apply nth_error_None in Hn. lia. }
    rewrite (nth_error_skipn_hd _ _ _ Hn), Nat.add_1_r.
    destruct (tt_eqb (get_type tok) TTLParen).
    + pose proof (IH (S index) []) as IH1.
      destruct (gts fuel (skipn (S index) tokens) []) as [[t rem]| |]; cbn [bind];
        [|contradiction|now rewrite IH1].
      destruct IH1 as (e & -> & ->); cbn [bind].
      rewrite skipn_skipn'. replace (e + 2)%nat with (e + 1 + 1)%nat by lia. apply IH.
    + destruct (tt_eqb (get_type tok) TTRParen); [|apply IH].
      exists index. split; [reflexivity|]. symmetry. now apply nth_error_skipn_hd.
  - apply Nat.ltb_ge in Hlt. rewrite (skipn_all2 tokens Hlt).
    exists index. split; [reflexivity|]. symmetry. now apply skipn_all2.
Qed.

Local Transparent skipn.
Definition sgroup_tokens (fuel : nat) (tokens : list token) : res token :=
  do te <- gts fuel tokens []; Ok (fst te).

Theorem group_tokens_stream fuel tokens : group_tokens fuel tokens 0 = sgroup_tokens fuel tokens.
Proof.
  unfold group_tokens, group_tokens_to, sgroup_tokens.
  pose proof (gt_loop_stream fuel tokens 0 []) as H. change (skipn 0 tokens) with tokens in H.
  destruct (gts fuel tokens []) as [[t rem]| |]; cbn [bind].
  - destruct H as (e & He & _). rewrite He. reflexivity.
  - contradiction.
  - rewrite H. reflexivity.
Qed.

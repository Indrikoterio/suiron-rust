(* C01 - C04 for programs with cut, not and time: the resumable search of Model/Solve.v refines
   the reference search of Spec/SpecCut.v.

   `cden fs nd w k` is the ABSTRACTION FUNCTION: what remains of the reference search in the
   state of node nd.  A node whose no_backtracking flag is set denotes the empty rest; a live
   node denotes the reference search of what it still has to try, the continuations being those
   the reference search itself builds (kwrap, kbump, halt1).  One machine step (`next`) finds no
   answer - then the denotation is empty, with signal Cut 0 iff the step reports a cut - or finds
   answer s, and then the denotation is: hand s to k; after a cut that is all (the signal
   becomes Cut); otherwise, if k says Go, the rest is the denotation of the node as it is left
   (cden_step).  Draining a node therefore yields exactly its denotation, and the denotation of
   a fresh node is the reference search of its goal (cden_fresh).

   Results are compared by `ole` (whatever the left side delivers, the right side delivers), the
   outcome of a step is itself written as a result (`cstepto`), and cden_step is proved by induction
   on the derivations of Proofs/SolveRel.v (cden_step_all) from the laws of `seq`, `kwrap` and `after_body`.  The
   laws that relate two results are stated for any order that bind respects (Section Order): ole
   and equality here, the information order of Proofs/RefineCutConverse.v there. *)
From Coq Require Import Lia.
From Suiron Require Import Model.Term Model.Subst Model.Show Model.Lists Model.Arith Model.Unify
  Model.Compare Model.Builtins Model.Rename Model.Solve Spec.SpecCut
  Proofs.RenameProofs Proofs.SolveRel Proofs.SolveDead Proofs.RefinePlain.
Open Scope N_scope.

(* results ordered by definedness: whatever x delivers, y delivers *)
Definition ole {A} (x y : res A) : Prop := forall R, x = Ok R -> y = Ok R.
Lemma ole_refl {A} (x : res A) : ole x x. Proof. intros R H; exact H. Qed.
Lemma ole_trans {A} (x y z : res A) : ole x y -> ole y z -> ole x z.
Proof. intros H1 H2 R H. auto. Qed.
Lemma ole_bind {A B} (x y : res A) (f g : A -> res B) :
  ole x y -> (forall a, ole (f a) (g a)) -> ole (bind x f) (bind y g).
Proof.
  intros Hx Hf R H. destruct x as [a| |]; try discriminate. rewrite (Hx _ eq_refl). exact (Hf _ _ H).
Qed.

Lemma ole_eq {A} (x y z : res A) : ole x y -> y = z -> ole x z.
Proof. intros H <-. exact H. Qed.

Definition ckle (k1 k2 : ckont) : Prop := forall s w c r, k1 s w c = Ok r -> k2 s w c = Ok r.
Lemma ckle_refl k : ckle k k. Proof. intros s w c r H; exact H. Qed.

Lemma join0_idem s : join0 (join0 s) = join0 s.
Proof. destruct s; reflexivity. Qed.
Lemma join0_not_go s : join0 s <> Go.
Proof. destruct s; discriminate. Qed.

Lemma seq_nil_l w f : seq (Ok ([], w, Go)) f = f w.
Proof. unfold seq. cbn [bind]. destruct (f w) as [[[a2 w2] g2]| |]; reflexivity. Qed.
Lemma seq_nil_r x : seq x (fun w => Ok ([], w, Go)) = x.
Proof. destruct x as [[[a1 w1] [| |]]| |]; try reflexivity. unfold seq. cbn [bind]. now rewrite app_nil_r. Qed.
Lemma seq_stop a w g f : g <> Go -> seq (Ok (a, w, g)) f = Ok (a, w, g).
Proof. destruct g; [intro H; now elim H|reflexivity..]. Qed.
Lemma seq_assoc x f g : seq (seq x f) g = seq x (fun w => seq (f w) g).
Proof.
  unfold seq. destruct x as [[[a1 w1] [| |]]| |]; try reflexivity. cbn [bind].
  destruct (f w1) as [[[a2 w2] [| |]]| |]; try reflexivity. cbn [bind].
  destruct (g w2) as [[[a3 w3] g3]| |]; try reflexivity. cbn [bind]. now rewrite app_assoc.
Qed.

Lemma mark_idem c x : mark c (mark c x) = mark c x.
Proof. destruct c, x as [[a w] g]; cbn [mark]; [now rewrite join0_idem|reflexivity]. Qed.
Lemma bind_ret {A} (x : res A) : (do y <- x; Ok y) = x.
Proof. destruct x; reflexivity. Qed.
Lemma bind_bind {A B C} (x : res A) (f : A -> res B) (g : B -> res C) :
  (do b <- (do a <- x; f a); g b) = (do a <- x; do b <- f a; g b).
Proof. destruct x; reflexivity. Qed.

(* handing an answer to k after a cut (c): the result is marked, and a marked result ends a sequence *)
Lemma kwrap_false k s w : kwrap false k s w false = k s w false.
Proof. unfold kwrap. cbn [orb]. apply bind_ret. Qed.
Lemma kwrap_kwrap c1 k s w c2 : kwrap false (kwrap c1 k) s w c2 = kwrap false k s w (c1 || c2).
Proof.
  unfold kwrap. cbn [orb]. rewrite bind_bind. destruct (k s w (c1 || c2)) as [x| |]; try reflexivity.
  cbn [bind]. destruct c2; [|reflexivity]. rewrite orb_true_r. now rewrite mark_idem.
Qed.
Lemma kwrap_cut_stop k s w f : seq (kwrap false k s w true) f = kwrap false k s w true.
Proof.
  unfold kwrap. cbn [orb]. destruct (k s w true) as [[[a w2] g]| |]; try reflexivity.
  cbn [bind mark]. apply seq_stop, join0_not_go.
Qed.
(* a clause body followed by the remaining clauses, as cclauses_body and cden's call case spell it out *)
Definition aft (x : res cres) (rest : world -> res cres) : res cres := do y <- x; after_body y rest.
Lemma after_body_nil w rest : after_body ([], w, Go) rest = rest w.
Proof. unfold after_body. destruct (rest w) as [[[a w2] g]| |]; reflexivity. Qed.
Lemma aft_seq_go a w G CL : aft (seq (Ok (a, w, Go)) G) CL = seq (Ok (a, w, Go)) (fun w' => aft (G w') CL).
Proof.
  unfold aft, seq. cbn [bind]. destruct (G w) as [[[a2 w3] [|[|m]|]]| |]; try reflexivity.
  cbn [bind after_body]. destruct (CL w3) as [[[a3 w4] g3]| |]; try reflexivity. cbn [bind]. now rewrite app_assoc.
Qed.

(* For every order on results that bind respects: sequencing and the continuations are monotone, a
   step of a parent is the step of the child it asks inside the parent's frame, and the reference
   search is monotone in its fuel and in its continuation. *)
Section Order.
  Variable ord : forall A, res A -> res A -> Prop.
  Hypothesis ord_refl : forall A (x : res A), ord A x x.
  Hypothesis ord_bot : forall A (y : res A), ord A OutOfFuel y.
  Hypothesis ord_bind : forall A B (x y : res A) (f g : A -> res B),
    ord A x y -> (forall a, ord B (f a) (g a)) -> ord B (bind x f) (bind y g).

  Definition kord (k1 k2 : ckont) : Prop := forall s w c, ord _ (k1 s w c) (k2 s w c).
  Lemma kord_refl k : kord k k. Proof. intros s w c. apply ord_refl. Qed.
  Lemma kord_kbump k1 k2 : kord k1 k2 -> kord (kbump k1) (kbump k2).
  Proof. intros H s w c. apply ord_bind; [apply H|intro; apply ord_refl]. Qed.
  Lemma kord_kwrap c1 k1 k2 : kord k1 k2 -> kord (kwrap c1 k1) (kwrap c1 k2).
  Proof. intros H s w c. apply ord_bind; [apply H|intro; apply ord_refl]. Qed.

  Lemma ord_seq x y f g : ord _ x y -> (forall w, ord _ (f w) (g w)) -> ord _ (seq x f) (seq y g).
  Proof.
    intros Hx Hf. apply ord_bind; [exact Hx|]. intros [[a1 w1] [| |]]; try apply ord_refl.
    apply ord_bind; [apply Hf|intro; apply ord_refl].
  Qed.
  Lemma ord_aft x y f g : ord _ x y -> (forall w, ord _ (f w) (g w)) -> ord _ (aft x f) (aft y g).
  Proof.
    intros Hx Hf. apply ord_bind; [exact Hx|]. intros [[a1 w1] [|[|m]|]]; try apply ord_refl.
    apply ord_bind; [apply Hf|intro; apply ord_refl].
  Qed.

  (* what follows a marked answer is not looked at: what comes after matters only if no cut ran *)
  Lemma ord_kwrap_seq k s w c G G' : (c = false -> forall w2, ord _ (G w2) (G' w2)) ->
    ord _ (seq (kwrap false k s w c) G) (seq (kwrap false k s w c) G').
  Proof. intro H. destruct c; [rewrite !kwrap_cut_stop; apply ord_refl|]. apply ord_seq; [apply ord_refl|now apply H]. Qed.

  (* an answer s of a child that runs under k1, F being what the parent does after the child *)
  Lemma ord_step_seq k k1 F s c w G1 G : kwrap false k1 s w c = kwrap false k s w c ->
    (c = false -> forall w2, ord _ (seq (G1 w2) F) (G w2)) ->
    ord _ (seq (seq (kwrap false k1 s w c) G1) F) (seq (kwrap false k s w c) G).
  Proof. intros Ek H. rewrite seq_assoc, Ek. now apply ord_kwrap_seq. Qed.

  (* an answer of a clause body: the call hands it to k as its own, without the cut flag; the body's
     cut (c) ends the call *)
  Lemma ord_step_call k CL s (c : bool) w G1 G :
    (forall w2, ord _ (if c then Ok ([], w2, Go) else aft (G1 w2) CL) (G w2)) ->
    ord _ (aft (seq (kwrap false (kbump k) s w c) G1) CL) (seq (kwrap false k s w false) G).
  Proof.
    intro H. rewrite kwrap_false. unfold kwrap. cbn [orb]. unfold kbump at 1. unfold aft at 1, seq at 1.
    rewrite !bind_bind. destruct (k s w false) as [[[a w2] g]| |]; try apply ord_refl. cbn [bind].
    destruct g as [|m|]; [|destruct c; apply ord_refl..].
    destruct c; cbn [mark bump join0 bind after_body].
    - rewrite <- (seq_nil_r (Ok (a, w2, Go))). apply ord_seq; [apply ord_refl|exact H].
    - change (ord _ (aft (seq (Ok (a, w2, Go)) G1) CL) (seq (Ok (a, w2, Go)) G)).
      rewrite aft_seq_go. apply ord_seq; [apply ord_refl|exact H].
  Qed.

  Variable kb : kbase.
  Variable bf : nat.

  Lemma csolve_ord_all : forall f,
    (forall f' g s w k1 k2, (f <= f')%nat -> kord k1 k2 ->
       ord _ (csolve kb bf f g s w k1) (csolve kb bf f' g s w k2)) /\
    (forall f' t s key idx n w k1 k2, (f <= f')%nat -> kord k1 k2 ->
       ord _ (cclauses kb bf f t s key idx n w k1) (cclauses kb bf f' t s key idx n w k2)).
  Proof.
    induction f as [|f [IHs IHc]]; [split; intros; apply ord_bot|].
    split.
    - intros [|f'] g s w k1 k2 Hle Hk; [lia|]. apply le_S_n in Hle. rewrite !csolve_S.
      destruct g as [op gs|fn ts|t|]; [destruct op, gs as [|g1 rest]|..]; try apply ord_refl; cbn [csolve_body].
      + destruct rest as [|g2 rest]; apply IHs; try assumption.
        intros s1 w1 c1. apply ord_bind; [apply IHs; [exact Hle|apply kord_kwrap, Hk]|intro; apply ord_refl].
      + destruct rest as [|g2 rest]; [now apply IHs|]. apply ord_seq; [|intro]; now apply IHs.
      + destruct (has_cut g1); [apply ord_refl|].
        apply ord_bind; [apply IHs; [exact Hle|apply kord_refl]|]. intros [[[|s1 a] w1] g]; [apply ord_refl|apply Hk].
      + destruct (has_cut g1); [apply ord_refl|].
        apply ord_bind; [apply IHs; [exact Hle|apply kord_refl]|]. intros [[[|s1 a] w1] g]; [apply Hk|apply ord_refl].
      + destruct (run_bip bf fn ts s) as [r| |]; try apply ord_refl. cbn [bind].
        destruct (br_sol r); [|apply ord_refl]. apply ord_bind; [apply Hk|intro; apply ord_refl].
      + destruct (term_key t) as [key| |]; try apply ord_refl. cbn [bind].
        destruct (count_rules kb key w) as [n w0]. now apply IHc.
    - intros [|f'] t s key idx n w k1 k2 Hle Hk; [lia|]. apply le_S_n in Hle. rewrite !cclauses_S.
      unfold cclauses_body. destruct (n <=? idx); [apply ord_refl|].
      destruct (get_rule kb key idx (next_id w)) as [[r ctr]| |]; try apply ord_refl. cbn [bind].
      destruct (unify bf (r_head r) t s) as [[s'|]| |]; try apply ord_refl; cbn [bind]; [|now apply IHc].
      destruct (is_gnil (r_body r)).
      + apply ord_seq; [apply Hk|intro; now apply IHc].
      + apply ord_aft; [apply IHs; [exact Hle|apply kord_kbump, Hk]|intro; now apply IHc].
  Qed.
End Order.

(* the instances: equality, and ole (ckle is kord for ole) *)
Lemma bind_ext {A B} (x y : res A) (f g : A -> res B) : x = y -> (forall a, f a = g a) -> bind x f = bind y g.
Proof. intros -> H. destruct y; cbn [bind]; auto. Qed.
Lemma seq_ext x (f g : world -> res cres) : (forall w, f w = g w) -> seq x f = seq x g.
Proof. exact (ord_seq (fun A => @eq (res A)) (fun A x => eq_refl) (@bind_ext) x x f g eq_refl). Qed.
Lemma ole_bot {A} (y : res A) : ole OutOfFuel y. Proof. intros R C; discriminate C. Qed.
Lemma seq_le x y f g : ole x y -> (forall w, ole (f w) (g w)) -> ole (seq x f) (seq y g).
Proof. exact (ord_seq (@ole) (@ole_refl) (@ole_bind) x y f g). Qed.
Lemma ole_seq x y F z : ole x y -> seq y F = z -> ole (seq x F) z.
Proof. intros H <-. apply seq_le; [exact H|intro; apply ole_refl]. Qed.
Lemma aft_le x y f g : ole x y -> (forall w, ole (f w) (g w)) -> ole (aft x f) (aft y g).
Proof. exact (ord_aft (@ole) (@ole_refl) (@ole_bind) x y f g). Qed.
Lemma ckle_kwrap c1 k1 k2 : ckle k1 k2 -> ckle (kwrap c1 k1) (kwrap c1 k2).
Proof. exact (kord_kwrap (@ole) (@ole_refl) (@ole_bind) c1 k1 k2). Qed.

(* induction on nodes that reaches the children inside the options *)
Section node_ind2.
  Variable P : node -> Prop.
  Hypothesis HCall : forall t ss nobt child idx n,
    match child with Some c => P c | None => True end -> P (NCall t ss nobt child idx n).
  Hypothesis HOp : forall k ss nobt more head tail optail,
    match head with Some h => P h | None => True end ->
    match tail with Some t => P t | None => True end -> P (NOp k ss nobt more head tail optail).
  Hypothesis HBip : forall fn ts ss nobt more, P (NBip fn ts ss nobt more).
  Fixpoint node_ind2 (nd : node) : P nd :=
    match nd with
    | NCall t ss nobt child idx n =>
        HCall t ss nobt child idx n (match child with Some c => node_ind2 c | None => I end)
    | NOp k ss nobt more head tail optail =>
        HOp k ss nobt more head tail optail
            (match head with Some h => node_ind2 h | None => I end)
            (match tail with Some t => node_ind2 t | None => I end)
    | NBip fn ts ss nobt more => HBip fn ts ss nobt more
    end.
End node_ind2.

Lemma has_cut_op k gs : has_cut (GOp k gs) = existsb has_cut gs.
Proof. simpl. induction gs as [|x r IH]; [reflexivity|]. simpl. now rewrite IH. Qed.

Section CDen.
  Variable kb : kbase.
  Variable bf : nat.

  Lemma csolve_mono_all : forall f,
    (forall f' g s w k1 k2, (f <= f')%nat -> ckle k1 k2 ->
       ole (csolve kb bf f g s w k1) (csolve kb bf f' g s w k2)) /\
    (forall f' t s key idx n w k1 k2, (f <= f')%nat -> ckle k1 k2 ->
       ole (cclauses kb bf f t s key idx n w k1) (cclauses kb bf f' t s key idx n w k2)).
  Proof. exact (csolve_ord_all (@ole) (@ole_refl) (@ole_bot) (@ole_bind) kb bf). Qed.

  Lemma csolve_mono f f' g s w k1 k2 R : (f <= f')%nat -> ckle k1 k2 ->
    csolve kb bf f g s w k1 = Ok R -> csolve kb bf f' g s w k2 = Ok R.
  Proof. intros Hle Hk. now apply csolve_mono_all. Qed.
  Lemma cclauses_mono f f' t s key idx n w k1 k2 R : (f <= f')%nat -> ckle k1 k2 ->
    cclauses kb bf f t s key idx n w k1 = Ok R -> cclauses kb bf f' t s key idx n w k2 = Ok R.
  Proof. intros Hle Hk. now apply csolve_mono_all. Qed.

  (* the continuation of the first goal of a conjunction whose other goals are `optail`: k is told about
     a cut in that goal (c1), and the answer then comes back marked *)
  Definition ckand (fs : nat) (optail : option (list goal)) (k : ckont) : ckont :=
    match optail with
    | Some (g :: r) => fun s1 w1 c1 =>
        do y <- csolve kb bf fs (GOp OAnd (g :: r)) s1 w1 (kwrap c1 k); Ok (mark c1 y)
    | _ => k
    end.
  (* the remaining alternatives of a disjunction *)
  Definition correst (fs : nat) (optail : option (list goal)) (ss : subst) (w : world) (k : ckont) : res cres :=
    match optail with
    | Some (g :: r) => csolve kb bf fs (GOp OOr (g :: r)) ss w k
    | _ => Ok ([], w, Go)
    end.

  (* the key under which the clauses of a call were counted; a call node exists only after term_key
     succeeded (make_node), so the default is never met: every use has term_key t = Ok key (cclauses_step) *)
  Definition keyof (t : term) : str := match term_key t with Ok key => key | _ => [] end.

  (* no `!` in the node at this clause level (calls hide theirs) *)
  Fixpoint ncutb (nd : node) : bool :=
    match nd with
    | NBip fn _ _ _ _ => negb (str_eqb fn n_cut)
    | NCall _ _ _ _ _ _ => true
    | NOp _ _ _ _ head tail optail =>
        (match head with Some h => ncutb h | None => true end) &&
        (match tail with Some t => ncutb t | None => true end) &&
        (match optail with Some tl => negb (existsb has_cut tl) | None => true end)
    end.

  Definition empty (w : world) : res cres := Ok ([], w, Go).

  (* fs: the fuel of every reference search the denotation starts (csolve, cclauses) *)
  Fixpoint cden (fs : nat) (nd : node) (w : world) (k : ckont) {struct nd} : res cres :=
    if node_nobt nd then empty w else
    match nd with
    | NBip fn ts ss _ more => if more then csolve kb bf fs (GBip fn ts) ss w k else empty w
    | NCall t ss _ child idx n =>
        do x <- match child with Some c => cden fs c w (kbump k) | None => empty w end;
        after_body x (fun w2 => cclauses kb bf fs t ss (keyof t) idx n w2 k)
    | NOp OAnd ss _ _ head tail optail =>
        seq (match tail with Some t => cden fs t w (kwrap false k) | None => empty w end)
            (fun w1 => match head with Some h => cden fs h w1 (ckand fs optail k) | None => empty w1 end)
    | NOp OOr ss _ _ head tail optail =>
        match tail with
        | Some t => cden fs t w k
        | None =>
            match head with
            | None => empty w
            | Some h => seq (cden fs h w k) (fun w1 => correst fs optail ss w1 k)
            end
        end
    | NOp ONot ss _ more head _ _ =>
        if more then
          match head with
          | Some h =>
              if ncutb h then
                do x <- cden fs h w halt1;
                let '(a, w1, _) := x in
                match a with [] => k ss w1 false | _ => Ok ([], w1, Go) end
              else Panic
          | None => Panic
          end
        else empty w
    | NOp OTime ss _ more head _ _ =>
        if more then
          match head with
          | Some h =>
              if ncutb h then
                do x <- cden fs h w halt1;
                let '(a, w1, _) := x in
                match a with
                | [] => Ok ([], w_print w1 elapsed_token, Go)
                | s1 :: _ => k s1 (w_print w1 elapsed_token) false
                end
              else Panic
          | None => Panic
          end
        else empty w
    end.

  Lemma cden_nobt fs nd w k : node_nobt nd = true -> cden fs nd w k = empty w.
  Proof. intro H. destruct nd; simpl in H; subst; reflexivity. Qed.

  Lemma make_node_ncut : forall g ss w nd w', has_cut g = false -> make_node kb g ss w = Ok (nd, w') -> ncutb nd = true.
  Proof.
    intros g ss w nd w' Hc H. apply make_node_Made in H.
    induction H as [k h tl w hn w' _ IH|f ts w|t key w _]; cbn [ncutb].
    - rewrite has_cut_op in Hc. cbn [existsb] in Hc. apply orb_false_iff in Hc as [C1 C2]. rewrite (IH C1).
      destruct k; cbn [andb]; try reflexivity; now rewrite C2.
    - cbn [has_cut] in Hc. now rewrite Hc.
    - reflexivity.
  Qed.

  (* a fresh node denotes the reference search of its goal (from the world in which it is made) *)
  Lemma cden_fresh_le : forall g f fs ss w nd w' k1 k2,
    make_node kb g ss w = Ok (nd, w') -> (f <= fs)%nat -> ckle k1 k2 ->
    ole (csolve kb bf f g ss w k1) (cden fs nd w' k2).
  Proof.
    intros g f fs ss w nd w' k1 k2 Hm. apply make_node_Made in Hm. revert f fs k1 k2.
    induction Hm as [op g1 rest w hn w' Hm IH|fn ts w|t key w Ek]; intros [|f] fs k1 k2 Hle Hk;
      try (intros R C; discriminate C); rewrite csolve_S.
    - assert (forall k1 k2, ckle k1 k2 -> ole (csolve kb bf f g1 ss w k1) (cden fs hn w' k2)) as Hg1
        by (intros; apply IH; [lia|assumption]).
      apply Made_make_node in Hm. destruct op; cbn [cden node_nobt csolve_body].
      + unfold empty. rewrite seq_nil_l. destruct rest as [|g2 rest]; apply Hg1; [exact Hk|].
        intros s1 w1 c1. apply ole_bind; [|intro; apply ole_refl].
        apply csolve_mono_all; [lia|apply ckle_kwrap, Hk].
      + destruct rest as [|g2 rest]; [rewrite seq_nil_r; now apply Hg1|].
        apply seq_le; [now apply Hg1|]. intro w1. apply csolve_mono_all; [lia|exact Hk].
      + destruct (has_cut g1) eqn:Ec; [intros R C; discriminate C|]. rewrite (make_node_ncut _ _ _ _ _ Ec Hm).
        apply ole_bind; [apply Hg1, ckle_refl|]. intros [[[|s1 a] w1] g]; [apply ole_refl|exact (Hk _ _ _)].
      + destruct (has_cut g1) eqn:Ec; [intros R C; discriminate C|]. rewrite (make_node_ncut _ _ _ _ _ Ec Hm).
        apply ole_bind; [apply Hg1, ckle_refl|]. intros [[[|s1 a] w1] g]; [exact (Hk _ _ _)|apply ole_refl].
    - cbn [cden node_nobt]. rewrite <- csolve_S. apply csolve_mono_all; assumption.
    - cbn [csolve_body cden node_nobt]. rewrite Ek. cbn [bind]. destruct (count_rules kb key w) as [n w0]. cbn [fst snd].
      unfold empty, keyof. cbn [bind]. rewrite after_body_nil, Ek. apply csolve_mono_all; [lia|exact Hk].
  Qed.
  Lemma cden_fresh : forall g f fs ss w nd w' k1 k2 R,
    make_node kb g ss w = Ok (nd, w') -> (f <= fs)%nat -> ckle k1 k2 ->
    csolve kb bf f g ss w k1 = Ok R -> cden fs nd w' k2 = Ok R.
  Proof. intros g f fs ss w nd w' k1 k2 R Hm Hle Hk. now apply cden_fresh_le. Qed.

  Lemma ncutb_set_nobt nd : ncutb (set_nobt nd) = ncutb nd.
  Proof. destruct nd; reflexivity. Qed.
  (* ncutb of an operator node is ncutb of its children and no cut among the goals still to come *)
  Lemma ncutb_op_inv {k ss b m head tail o} : ncutb (NOp k ss b m head tail o) = true ->
    match head with Some h => ncutb h = true | None => True end /\
    match tail with Some t => ncutb t = true | None => True end /\
    match o with Some tl => existsb has_cut tl = false | None => True end.
  Proof.
    cbn [ncutb]. intro H. apply andb_true_iff in H as [H Ho]. apply andb_true_iff in H as [Hh Ht].
    repeat split; [destruct head|destruct tail|destruct o]; try exact I; try assumption.
    now apply negb_true_iff.
  Qed.
  Lemma ncutb_op k ss b m head tail o :
    match head with Some h => ncutb h = true | None => True end ->
    match tail with Some t => ncutb t = true | None => True end ->
    match o with Some tl => existsb has_cut tl = false | None => True end ->
    ncutb (NOp k ss b m head tail o) = true.
  Proof. intros Hh Ht Ho. cbn [ncutb]. destruct head, tail, o; rewrite ?Hh, ?Ht, ?Ho; reflexivity. Qed.
  Lemma fresh_ncut k tl ss w t w2 : existsb has_cut tl = false -> make_node kb (GOp k tl) ss w = Ok (t, w2) -> ncutb t = true.
  Proof. intros Ho. apply make_node_ncut. now rewrite has_cut_op. Qed.

  (* a request to the head / to the tail of an operator node whose answer is the node's, given what the
     induction hypothesis says of the child *)
  Lemma ncut_head k ss b m h t o c h' k2 ss2 b2 m2 : ncutb (NOp k ss b m (Some h) t o) = true ->
    (ncutb h = true -> c = false /\ ncutb h' = true) ->
    c = false /\ ncutb (NOp k2 ss2 b2 m2 (Some (if c then set_nobt h' else h')) t o) = true.
  Proof.
    intros Hn IH. destruct (ncutb_op_inv Hn) as (Hh & Ht & Ho). destruct (IH Hh) as [-> Hh'].
    split; [reflexivity|apply ncutb_op; assumption].
  Qed.
  Lemma ncut_tail k ss b m head t o c t' k2 ss2 b2 m2 : ncutb (NOp k ss b m head (Some t) o) = true ->
    (ncutb t = true -> c = false /\ ncutb t' = true) ->
    c = false /\ ncutb (NOp k2 ss2 b2 m2 (if c then set_nobt_opt head else head) (Some t') o) = true.
  Proof.
    intros Hn IH. destruct (ncutb_op_inv Hn) as (Hh & Ht & Ho). destruct (IH Ht) as [-> Ht'].
    split; [reflexivity|apply ncutb_op; assumption].
  Qed.
  Lemma ncut_acc (acc c : bool) (X : Prop) : c = false /\ X -> acc || c = acc /\ X.
  Proof. intros [-> H]. now rewrite orb_false_r. Qed.

  (* A node without cut at its clause level never reports one.  Every request to a child is made to a
     node without cut (ncutb_op_inv; a fresh one by fresh_ncut), so its induction hypothesis says that
     it reports none (c = false, after which the flags `if c then set_nobt ..` are the nodes themselves)
     and leaves such a child: the node that is left is again without cut (ncutb_op).  Call nodes hide
     the cuts of their clauses; only `!` itself reports one, and it is excluded by ncutb (run_bip_no_cut). *)
  Lemma ncut_all :
    (forall nd w nd' sol c w', Next kb bf nd w nd' sol c w' -> ncutb nd = true -> c = false /\ ncutb nd' = true) /\
    (forall ss nobt more head tail o acc w nd' sol c w',
       AndLoop kb bf ss nobt more head tail o acc w nd' sol c w' ->
       ncutb (NOp OAnd ss nobt more head tail o) = true -> c = acc /\ ncutb nd' = true) /\
    (forall t ss nobt child idx n w nd' sol c w',
       CallLoop kb bf t ss nobt child idx n w nd' sol c w' -> c = false /\ ncutb nd' = true).
  Proof.
    apply Next_mut.
    - (* N_nobt *) intros. auto.
    - (* N_bip_spent *) intros. auto.
    - (* N_bip *) intros fn ts ss w r Hr Hn. split; [|exact Hn]. cbn [ncutb] in Hn. apply negb_true_iff in Hn.
      exact (run_bip_no_cut _ _ _ _ _ Hn Hr).
    - (* N_not_spent *) intros. auto.
    - (* N_not *) intros. eapply ncut_head; eassumption.
    - (* N_time_spent *) intros. auto.
    - (* N_time *) intros. eapply ncut_head; eassumption.
    - (* N_and_tail *) intros. eapply ncut_tail; eassumption.
    - (* N_and_tail_none *) intros * _ IH _ IHa Hn. destruct (ncutb_op_inv Hn) as (Hh & Ht & Ho).
      destruct (IH Ht) as [-> Ht']. apply IHa, ncutb_op; assumption.
    - (* N_and *) intros. auto.
    - (* N_or_tail *) intros. eapply ncut_tail; eassumption.
    - (* N_or_empty *) intros. auto.
    - (* N_or_head *) intros. eapply ncut_head; eassumption.
    - (* N_or_last_none *) intros. eapply ncut_head; eassumption.
    - (* N_or_last_nil *) intros. eapply ncut_head; eassumption.
    - (* N_or_last_cut: the head does not report a cut *) intros * _ IH Hn.
      destruct (ncutb_op_inv Hn) as (Hh & _ & _). destruct (IH Hh) as [C _]. discriminate C.
    - (* N_or_next *) intros * _ IH Hm _ IH2 Hn. destruct (ncutb_op_inv Hn) as (Hh & _ & Ho).
      destruct (IH Hh) as [_ Hh']. destruct (IH2 (fresh_ncut _ _ _ _ _ _ Ho Hm)) as [-> Ht'].
      split; [reflexivity|apply ncutb_op; assumption].
    - (* N_call_child *) intros. auto.
    - (* N_call_child_none *) intros. assumption.
    - (* N_call *) intros. assumption.
    - (* A_none *) intros. auto.
    - (* A_fail *) intros. apply ncut_acc. eapply ncut_head; eassumption.
    - (* A_last_none *) intros. apply ncut_acc. eapply ncut_head; eassumption.
    - (* A_last_nil *) intros. apply ncut_acc. eapply ncut_head; eassumption.
    - (* A_tail *) intros * _ IH Hm _ IH2 Hn. destruct (ncutb_op_inv Hn) as (Hh & _ & Ho).
      destruct (IH Hh) as [-> Hh']. destruct (IH2 (fresh_ncut _ _ _ _ _ _ Ho Hm)) as [-> Ht'].
      rewrite !orb_false_r. split; [reflexivity|apply ncutb_op; assumption].
    - (* A_loop *) intros * _ IH Hm _ IH2 _ IHa Hn. destruct (ncutb_op_inv Hn) as (Hh & _ & Ho).
      destruct (IH Hh) as [-> Hh']. destruct (IH2 (fresh_ncut _ _ _ _ _ _ Ho Hm)) as [-> Ht'].
      rewrite !orb_false_r in IHa. apply IHa, ncutb_op; assumption.
    - (* C_nobt *) intros. auto.
    - (* C_end *) intros. auto.
    - (* C_skip *) intros. assumption.
    - (* C_fact *) intros. auto.
    - (* C_rule *) intros. auto.
    - (* C_rule_none *) intros. assumption.
  Qed.

  Lemma ncut_Next nd w nd' sol c w' :
    Next kb bf nd w nd' sol c w' -> ncutb nd = true -> c = false /\ ncutb nd' = true.
  Proof. apply ncut_all. Qed.

  Theorem ncut_next F nd w nd' r c w1 :
    ncutb nd = true -> next kb bf F nd w = Ok (nd', r, c, w1) -> c = false /\ ncutb nd' = true.
  Proof. intros Hn H. now apply next_sound, ncut_Next in H. Qed.

  Lemma cden_call fs t ss child idx n w k :
    cden fs (NCall t ss false child idx n) w k =
    do x <- match child with Some c => cden fs c w (kbump k) | None => empty w end;
    after_body x (fun w2 => cclauses kb bf fs t ss (keyof t) idx n w2 k).
  Proof. reflexivity. Qed.
  Lemma cden_and fs ss more head tail optail w k :
    cden fs (NOp OAnd ss false more head tail optail) w k =
    seq (match tail with Some t => cden fs t w (kwrap false k) | None => empty w end)
        (fun w1 => match head with Some h => cden fs h w1 (ckand fs optail k) | None => empty w1 end).
  Proof. reflexivity. Qed.
  Lemma cden_or fs ss more head tail optail w k :
    cden fs (NOp OOr ss false more head tail optail) w k =
    match tail with
    | Some t => cden fs t w k
    | None => match head with
              | None => empty w
              | Some h => seq (cden fs h w k) (fun w1 => correst fs optail ss w1 k)
              end
    end.
  Proof. reflexivity. Qed.

  Lemma after_body_empty_inv w (rest : world -> res cres) R : after_body ([], w, Go) rest = Ok R -> rest w = Ok R.
  Proof.
    unfold after_body. destruct (rest w) as [[[a w2] g]| |]; cbn [bind]; intro H; try discriminate. exact H.
  Qed.

  Lemma run_bip_cut_sol f fn ts ss r : run_bip f fn ts ss = Ok r -> br_cut r = true -> br_sol r = Some ss.
  Proof.
    intros H Hc. destruct (str_eqb fn n_cut) eqn:E.
    - apply str_eqb_eq in E. subst fn. vm_compute in H. inversion H; subst. reflexivity.
    - rewrite (run_bip_no_cut _ _ _ _ _ E H) in Hc. discriminate.
  Qed.

  Lemma cclauses_end fs t ss key idx n w k : n <= idx -> (1 <= fs)%nat ->
    cclauses kb bf fs t ss key idx n w k = empty w.
  Proof.
    intros Hle Hfs. destruct fs as [|f]; [lia|]. rewrite cclauses_S. unfold cclauses_body.
    apply N.leb_le in Hle. now rewrite Hle.
  Qed.

  (* an exhausted node denotes the empty rest *)
  Lemma cdead_den : forall nd fs w k, dead nd -> (1 <= fs)%nat -> cden fs nd w k = empty w.
  Proof.
    induction nd as [t ss nobt child idx n IHc|kd ss nobt more head tail optail IHh IHt|fn ts ss nobt more] using node_ind2;
      intros fs w k Hd Hfs; (destruct nobt; [reflexivity|]); simpl in Hd; (destruct Hd as [Hd|Hd]; [discriminate|]).
    - destruct Hd as [Hle Hdc]. rewrite cden_call.
      assert (match child with Some c => cden fs c w (kbump k) | None => empty w end = empty w) as ->.
      { destruct child as [c|]; [apply IHc; auto|reflexivity]. }
      unfold empty at 1. cbn [bind]. rewrite after_body_nil. now apply cclauses_end.
    - destruct kd.
      + destruct Hd as [Hdh Hdt]. rewrite cden_and.
        assert (match tail with Some t => cden fs t w (kwrap false k) | None => empty w end = empty w) as ->.
        { destruct tail as [t|]; [apply IHt; auto|reflexivity]. }
        unfold empty. rewrite seq_nil_l. destruct head as [h|]; [apply IHh; auto|reflexivity].
      + rewrite cden_or. destruct tail as [t|]; [apply IHt; auto|].
        destruct head as [h|]; [|reflexivity]. destruct Hd as [Hdh Hoe].
        rewrite (IHh fs w k Hdh Hfs). unfold empty. rewrite seq_nil_l.
        destruct optail as [[|g r]|]; try reflexivity. discriminate.
      + subst more. reflexivity.
      + subst more. reflexivity.
    - subst more. reflexivity.
  Qed.

  Lemma cden_opt_dead fs o w k : match o with Some t => dead t | None => True end -> (1 <= fs)%nat ->
    match o with Some t => cden fs t w k | None => empty w end = empty w.
  Proof. destruct o as [t|]; [intros D H; now apply cdead_den|reflexivity]. Qed.

  (* what one step of the machine says about the value R of the denotation, spelled out (the statement
     of cden_step) *)
  Definition cstepres (fs : nat) (k : ckont) (R : cres) (nd' : node) (r : option subst) (c : bool) (w1 : world) : Prop :=
    match r with
    | None => R = ([], w1, if c then Cut 0 else Go)
    | Some s1 => exists a1 w2 g1,
        k s1 w1 c = Ok (a1, w2, g1) /\
        if c then R = (a1, w2, join0 g1)
        else match g1 with
             | Go => exists a2 w3 g2, cden fs nd' w2 k = Ok (a2, w3, g2) /\ R = (a1 ++ a2, w3, g2)
             | _ => R = (a1, w2, g1)
             end
    end.

  Lemma ckand_wrap fs g tl k s w c :
    kwrap false (ckand fs (Some (g :: tl)) k) s w c = ckand fs (Some (g :: tl)) k s w c.
  Proof.
    unfold kwrap. cbn [orb ckand]. rewrite bind_bind.
    destruct (csolve kb bf fs (GOp OAnd (g :: tl)) s w (kwrap c k)) as [y| |]; try reflexivity.
    cbn [bind]. now rewrite mark_idem.
  Qed.

  (* the same as a result: `cden fs nd w k = Ok R -> cstepres ..R..` is `ole (cden fs nd w k) (cstepto ..)`
     (cstepto_res); the proofs work with this form, the statement of cden_step uses cstepres *)
  Definition sig_of (c : bool) : sig := if c then Cut 0 else Go.
  Definition cstepto fs k nd' (r : option subst) (c : bool) w1 : res cres :=
    match r with
    | None => Ok ([], w1, sig_of c)
    | Some s => seq (kwrap false k s w1 c) (fun w2 => cden fs nd' w2 k)
    end.

  Lemma cstepto_res fs k nd' r c w1 R : cstepto fs k nd' r c w1 = Ok R -> cstepres fs k R nd' r c w1.
  Proof.
    destruct r as [s|]; cbn [cstepto cstepres]; [|intros [= <-]; reflexivity].
    unfold kwrap, seq. cbn [orb]. destruct (k s w1 c) as [[[a1 w2] g1]| |]; try discriminate. cbn [bind].
    intro H. exists a1, w2, g1. split; [reflexivity|]. destruct c; cbn [mark] in H.
    - destruct g1; injection H as <-; reflexivity.
    - destruct g1; try (injection H as <-; reflexivity).
      destruct (cden fs nd' w2 k) as [[[a2 w3] g2]| |] eqn:E; try discriminate. injection H as <-. now exists a2, w3, g2.
  Qed.

  (* the node that is left matters only if no cut ran *)
  Lemma cstepto_node fs k n1 ND r c w1 : (c = false -> forall w2, cden fs n1 w2 k = cden fs ND w2 k) ->
    cstepto fs k n1 r c w1 = cstepto fs k ND r c w1.
  Proof.
    intro E. destruct r as [s|]; [|reflexivity].
    exact (ord_kwrap_seq (fun A => @eq (res A)) (fun A x => eq_refl) (@bind_ext) k s w1 c _ _ E).
  Qed.
  (* a child's answer s, when F is what the parent does after the child *)
  Lemma cstepto_seq fs k k1 F s c w1 n1 ND : kwrap false k1 s w1 c = kwrap false k s w1 c ->
    (c = false -> forall w2, seq (cden fs n1 w2 k1) F = cden fs ND w2 k) ->
    seq (cstepto fs k1 n1 (Some s) c w1) F = cstepto fs k ND (Some s) c w1.
  Proof. exact (ord_step_seq (fun A => @eq (res A)) (fun A x => eq_refl) (@bind_ext) k k1 F s c w1 _ _). Qed.
  (* a child finds no answer: after a cut that is all, otherwise the parent goes on *)
  Lemma cstep_none x F w1 c y : ole x (Ok ([], w1, sig_of c)) ->
    (if c then ole (Ok ([], w1, Cut 0)) y else ole (F w1) y) -> ole (seq x F) y.
  Proof.
    intros Hx Hy. eapply ole_trans; [apply seq_le; [exact Hx|intro; apply ole_refl]|].
    destruct c; [exact Hy|]. cbn [sig_of]. now rewrite seq_nil_l.
  Qed.
  (* an answer of a clause body (c: the body's cut, which ends the call).  The ole form is needed where a
     clause has just been fetched: the body was searched with one unit of fuel less than the node that is
     left searches its remaining clauses with (cclauses_up), so the two sides are not equal *)
  Lemma cstep_call fs k x CL s c w1 c1 ND :
    ole x (cstepto fs (kbump k) c1 (Some s) c w1) ->
    (forall w2, ole (if c then empty w2 else aft (cden fs c1 w2 (kbump k)) CL) (cden fs ND w2 k)) ->
    ole (aft x CL) (cstepto fs k ND (Some s) false w1).
  Proof.
    intros Hx E. eapply ole_trans; [apply aft_le; [exact Hx|intro; apply ole_refl]|].
    exact (ord_step_call (@ole) (@ole_refl) (@ole_bind) k CL s c w1 _ _ E).
  Qed.
  Lemma cstepto_call fs k CL s (c : bool) w1 c1 ND :
    (forall w2, (if c then empty w2 else aft (cden fs c1 w2 (kbump k)) CL) = cden fs ND w2 k) ->
    aft (cstepto fs (kbump k) c1 (Some s) c w1) CL = cstepto fs k ND (Some s) false w1.
  Proof. exact (ord_step_call (fun A => @eq (res A)) (fun A x => eq_refl) (@bind_ext) k CL s c w1 _ _). Qed.

  Lemma cclauses_up f t ss key idx n w k :
    ole (cclauses kb bf f t ss key idx n w k) (cclauses kb bf (S f) t ss key idx n w k).
  Proof. intro R. apply cclauses_mono; [lia|apply ckle_refl]. Qed.

  Lemma cclauses_step f t ss key idx n w k r ctr u : idx < n -> term_key t = Ok key ->
    get_rule kb key idx (next_id w) = Ok (r, ctr) -> unify bf (r_head r) t ss = Ok u ->
    cclauses kb bf (S f) t ss (keyof t) idx n w k =
    match u with
    | None => cclauses kb bf f t ss (keyof t) (idx + 1) n (w_set_id (w_set_id w ctr) (next_id w)) k
    | Some s' =>
        let rest w2 := cclauses kb bf f t ss (keyof t) (idx + 1) n w2 k in
        if is_gnil (r_body r) then seq (k s' (w_set_id w ctr) false) rest
        else aft (csolve kb bf f (r_body r) s' (w_set_id w ctr) (kbump k)) rest
    end.
  Proof.
    intros Hlt Hk Hg Hu. rewrite cclauses_S. unfold cclauses_body, keyof. rewrite Hk.
    destruct (N.leb_spec n idx); [lia|]. rewrite Hg. cbn [bind]. rewrite Hu. reflexivity.
  Qed.

  Lemma Next_dead {nd w nd' c w1} : Next kb bf nd w nd' None c w1 -> dead nd'.
  Proof. intro H. exact (proj1 (none_dead kb bf) _ _ _ _ _ _ H eq_refl). Qed.

  Lemma cden_and_dead fs ss m head tail o w k : dead_opt dead tail -> (1 <= fs)%nat ->
    cden fs (NOp OAnd ss false m head tail o) w k =
    match head with Some h => cden fs h w (ckand fs o k) | None => empty w end.
  Proof. intros D Hfs. rewrite cden_and, cden_opt_dead by assumption. apply seq_nil_l. Qed.
  Lemma cden_call_dead fs t ss child idx n w k : dead_opt dead child -> (1 <= fs)%nat ->
    cden fs (NCall t ss false child idx n) w k = cclauses kb bf fs t ss (keyof t) idx n w k.
  Proof. intros D Hfs. rewrite cden_call, cden_opt_dead by assumption. apply after_body_nil. Qed.

  Lemma dead_set_nobt_opt o : dead_opt dead (set_nobt_opt o).
  Proof. destruct o; [apply dead_set_nobt|exact I]. Qed.

  (* the answer of the rest of a conjunction, after the head's answer with flag c *)
  Lemma cstep_and fs k X s2 w3 (c c2 : bool) T' H' ND :
    ole X (seq (kwrap false k s2 w3 (c || c2)) T') ->
    (c || c2 = false -> forall w, ole (seq (T' w) H') (cden fs ND w k)) ->
    ole (seq (do y <- X; Ok (mark c y)) H') (cstepto fs k ND (Some s2) (c || c2) w3).
  Proof.
    intros HX E.
    eapply ole_trans; [apply seq_le; [apply ole_bind; [exact HX|intro; apply ole_refl]|intro; apply ole_refl]|].
    cbn [cstepto]. destruct (c || c2) eqn:Ecc.
    - rewrite !kwrap_cut_stop. unfold kwrap. cbn [orb]. rewrite bind_bind.
      destruct (k s2 w3 true) as [y| |]; try apply ole_refl. cbn [bind].
      replace (mark c (mark true y)) with (mark true y) by (destruct c; [now rewrite mark_idem|reflexivity]).
      destruct y as [[a w] g]. cbn [mark]. rewrite seq_stop by apply join0_not_go. apply ole_refl.
    - apply orb_false_iff in Ecc as [-> _]. cbn [mark]. rewrite bind_ret, seq_assoc.
      apply seq_le; [apply ole_refl|exact (E eq_refl)].
  Qed.

  (* a built-in's node denotes its step: `!` answers, so a step that reports a cut has an answer *)
  Lemma cden_bip fs fn ts ss w k r : run_bip bf fn ts ss = Ok r -> (1 <= fs)%nat ->
    cden fs (NBip fn ts ss false true) w k =
    cstepto fs k (NBip fn ts ss (br_cut r) false) (br_sol r) (br_cut r) (w_print w (br_out r)).
  Proof.
    intros Hr Hfs. destruct fs as [|f]; [lia|]. cbn [cden node_nobt].
    rewrite csolve_S. unfold csolve_body. rewrite Hr. cbn [bind].
    destruct (br_sol r) as [s|] eqn:Es; cbn [cstepto].
    - destruct (br_cut r); cbn [cden node_nobt]; unfold empty; now rewrite seq_nil_r.
    - destruct (br_cut r) eqn:Ec; [|reflexivity].
      rewrite (run_bip_cut_sol _ _ _ _ _ Hr Ec) in Es. discriminate Es.
  Qed.

  (* The denotation of a node is below its step, by induction on the machine's derivation (one case for
     each constructor of Proofs/SolveRel.v, in that order).
     The loops are entered only behind the test of the flag (nobt = false, acc = false), and with a tail /
     child that is exhausted (dead): an and-node asks its tail first and its head only when the tail has
     none left, a call fetches the next clause only when its child has none left; so what a loop has still
     to do is the denotation of the head (the clauses from idx on) alone.  `1 <= fs`: an exhausted node
     denotes the empty rest only with one unit of fuel, which `cclauses` needs to see n <= idx (cdead_den).
     The recurring move: when a child reports a cut (c = true) the machine still runs the loop, on flagged
     nodes; that run does nothing (dead_inert) - it is not covered by the induction hypothesis, whose
     statement is about unflagged loops - and the denotation has stopped at the mark as well. *)
  Lemma cden_step_all :
    (forall nd w nd' r c w1, Next kb bf nd w nd' r c w1 -> forall fs k, (1 <= fs)%nat ->
       ole (cden fs nd w k) (cstepto fs k nd' r c w1)) /\
    (forall ss nobt more head tail o acc w nd' r c w1,
       AndLoop kb bf ss nobt more head tail o acc w nd' r c w1 -> forall fs k,
       nobt = false -> acc = false -> dead_opt dead tail -> (1 <= fs)%nat ->
       ole (match head with Some h => cden fs h w (ckand fs o k) | None => empty w end)
           (cstepto fs k nd' r c w1)) /\
    (forall t ss nobt child idx n w nd' r c w1,
       CallLoop kb bf t ss nobt child idx n w nd' r c w1 -> forall fs k,
       nobt = false -> dead_opt dead child -> (1 <= fs)%nat ->
       ole (cclauses kb bf fs t ss (keyof t) idx n w k) (cstepto fs k nd' r c w1)).
  Proof.
    apply Next_mut.
    - (* N_nobt *) intros * Hnb fs k _. rewrite (cden_nobt _ _ _ _ Hnb). apply ole_refl.
    - (* N_bip_spent *) intros. apply ole_refl.
    - (* N_bip *) intros * Hr fs k Hfs. rewrite (cden_bip _ _ _ _ _ _ _ Hr Hfs). apply ole_refl.
    - (* N_not_spent *) intros. apply ole_refl.
    - (* N_not *) intros * H IH fs k Hfs. cbn [cden node_nobt].
      destruct (ncutb h) eqn:En; [|intros R C; discriminate C]. destruct (ncut_Next _ _ _ _ _ _ H En) as [-> _].
      eapply ole_trans; [apply ole_bind; [exact (IH fs halt1 Hfs)|intro; apply ole_refl]|].
      destruct sol as [s|]; [apply ole_refl|].
      cbn [cstepto bind]. rewrite kwrap_false. cbn [cden node_nobt]. unfold empty. rewrite seq_nil_r. apply ole_refl.
    - (* N_time_spent *) intros. apply ole_refl.
    - (* N_time *) intros * H IH fs k Hfs. cbn [cden node_nobt].
      destruct (ncutb h) eqn:En; [|intros R C; discriminate C]. destruct (ncut_Next _ _ _ _ _ _ H En) as [-> _].
      eapply ole_trans; [apply ole_bind; [exact (IH fs halt1 Hfs)|intro; apply ole_refl]|].
      destruct sol as [s|]; [|apply ole_refl].
      cbn [cstepto]. rewrite !kwrap_false. cbn [cden node_nobt]. unfold empty. rewrite seq_nil_r. apply ole_refl.
    - (* N_and_tail *) intros * H IH fs k Hfs. rewrite cden_and.
      apply (ole_seq _ _ _ _ (IH fs _ Hfs)), cstepto_seq; [apply kwrap_kwrap|]. intros -> w2. reflexivity.
    - (* N_and_tail_none *) intros * H IH HL IHL fs k Hfs. rewrite cden_and.
      eapply cstep_none; [exact (IH fs _ Hfs)|].
      pose proof (Next_dead H) as Dt. destruct c.
      + destruct (proj1 (proj2 (dead_inert kb bf)) _ _ _ _ _ _ _ _ _ _ _ _ HL (dead_set_nobt_opt head) Dt)
          as (-> & -> & -> & _).
        apply ole_refl.
      + apply IHL; [reflexivity|reflexivity|exact Dt|exact Hfs].
    - (* N_and *) intros * _ IHL fs k Hfs.
      rewrite cden_and_dead by (exact I || exact Hfs). apply IHL; [reflexivity|reflexivity|exact I|exact Hfs].
    - (* N_or_tail *) intros * H IH fs k Hfs.
      apply (ole_eq _ _ _ (IH fs k Hfs)), cstepto_node. intros -> w2. reflexivity.
    - (* N_or_empty *) intros. apply ole_refl.
    - (* N_or_head *) intros * H IH fs k Hfs. rewrite cden_or.
      apply (ole_seq _ _ _ _ (IH fs k Hfs)), cstepto_seq; [reflexivity|]. intros -> w2. reflexivity.
    - (* N_or_last_none *) intros * H IH fs k Hfs. rewrite cden_or.
      eapply cstep_none; [exact (IH fs k Hfs)|]. destruct c; apply ole_refl.
    - (* N_or_last_nil *) intros * H IH fs k Hfs. rewrite cden_or.
      eapply cstep_none; [exact (IH fs k Hfs)|]. destruct c; apply ole_refl.
    - (* N_or_last_cut *) intros * H IH fs k Hfs. rewrite cden_or.
      eapply (cstep_none _ _ _ true); [exact (IH fs k Hfs)|apply ole_refl].
    - (* N_or_next *) intros * H IH Hm H2 IH2 fs k Hfs. rewrite cden_or.
      eapply (cstep_none _ _ _ false); [exact (IH fs k Hfs)|].
      eapply ole_trans; [exact (cden_fresh_le _ fs fs _ _ _ _ k k Hm (le_n _) (ckle_refl k))|].
      apply (ole_eq _ _ _ (IH2 fs k Hfs)), cstepto_node. intros -> w4. reflexivity.
    - (* N_call_child *) intros * H IH fs k Hfs. rewrite cden_call.
      eapply cstep_call; [exact (IH fs _ Hfs)|]. intro w2. destruct c; [|rewrite cden_call]; apply ole_refl.
    - (* N_call_child_none *) intros * H IH HL IHL fs k Hfs. rewrite cden_call.
      eapply ole_trans; [apply ole_bind; [exact (IH fs _ Hfs)|intro; apply ole_refl]|].
      cbn [cstepto bind]. destruct c; cbn [sig_of].
      + destruct (proj2 (proj2 (dead_inert kb bf)) _ _ _ _ _ _ _ _ _ _ _ HL (or_introl eq_refl) I)
          as (-> & -> & -> & _).
        apply ole_refl.
      + rewrite after_body_nil. apply IHL; [reflexivity|exact I|exact Hfs].
    - (* N_call *) intros * _ IHL fs k Hfs.
      rewrite cden_call_dead by (exact I || exact Hfs). apply IHL; [reflexivity|exact I|exact Hfs].
    - (* A_none *) intros. subst. apply ole_refl.
    - (* A_fail *) intros * H IH fs k -> -> _ Hfs. exact (IH fs _ Hfs).
    - (* A_last_none *) intros * H IH fs k -> -> Dt Hfs.
      apply (ole_eq _ _ _ (IH fs k Hfs)), cstepto_node. intros Ec w2. cbn [orb] in Ec. subst c.
      now rewrite cden_and_dead by assumption.
    - (* A_last_nil *) intros * H IH fs k -> -> Dt Hfs.
      apply (ole_eq _ _ _ (IH fs k Hfs)), cstepto_node. intros Ec w2. cbn [orb] in Ec. subst c.
      now rewrite cden_and_dead by assumption.
    - (* A_tail *) intros * H IH Hm H2 IH2 fs k -> -> Dt Hfs.
      eapply ole_trans; [exact (IH fs _ Hfs)|]. unfold cstepto at 1. rewrite ckand_wrap. cbn [ckand orb].
      eapply cstep_and.
      + eapply ole_trans; [exact (cden_fresh_le _ fs fs _ _ _ _ _ _ Hm (le_n _) (ckle_refl _))|].
        eapply ole_trans; [exact (IH2 fs _ Hfs)|]. cbn [cstepto]. rewrite kwrap_kwrap. apply ole_refl.
      + intros Ecc w4. apply orb_false_iff in Ecc as [-> ->]. rewrite cden_and. apply ole_refl.
    - (* A_loop *) intros * H IH Hm H2 IH2 HL IHL fs k -> -> Dt Hfs.
      eapply ole_trans; [exact (IH fs _ Hfs)|]. cbn [cstepto]. rewrite ckand_wrap.
      pose proof (Next_dead H2) as Dt'.
      eapply (cstep_none _ _ _ (c || c2)).
      + eapply ole_trans; [apply ole_bind; [|intro; apply ole_refl]|].
        * eapply ole_trans; [exact (cden_fresh_le _ fs fs _ _ _ _ _ _ Hm (le_n _) (ckle_refl _))|exact (IH2 fs _ Hfs)].
        * destruct c, c2; apply ole_refl.
      + destruct (c || c2) eqn:Ecc.
        * assert (dead_opt dead (Some (let h'' := if c then set_nobt h' else h' in if c2 then set_nobt h'' else h''))) as Dh
            by (destruct c, c2; try discriminate Ecc; apply dead_set_nobt).
          destruct (proj1 (proj2 (dead_inert kb bf)) _ _ _ _ _ _ _ _ _ _ _ _ HL Dh Dt') as (-> & -> & -> & _).
          cbn [orb]. rewrite Ecc. apply ole_refl.
        * apply orb_false_iff in Ecc as [-> ->]. apply IHL; [reflexivity|reflexivity|exact Dt'|exact Hfs].
    - (* C_nobt *) intros * C. discriminate C.
    - (* C_end *) intros * Hle fs k _ _ Hfs. rewrite cclauses_end by assumption. apply ole_refl.
    - (* C_skip *) intros * Hlt Hk Hg Hu _ IHL fs k E D Hfs.
      destruct fs as [|f]; [lia|]. rewrite (cclauses_step _ _ _ _ _ _ _ _ _ _ _ Hlt Hk Hg Hu).
      eapply ole_trans; [apply cclauses_up|exact (IHL _ k E D Hfs)].
    - (* C_fact *) intros * Hlt Hk Hg Hu Hnil fs k _ D Hfs.
      destruct fs as [|f]; [lia|]. rewrite (cclauses_step _ _ _ _ _ _ _ _ _ _ _ Hlt Hk Hg Hu), Hnil.
      cbn [cstepto]. rewrite kwrap_false. apply seq_le; [apply ole_refl|]. intro w2.
      rewrite cden_call_dead by assumption. apply cclauses_up.
    - (* C_rule *) intros * Hlt Hk Hg Hu Hnil Hm H IH fs k _ _ Hfs.
      destruct fs as [|f]; [lia|]. rewrite (cclauses_step _ _ _ _ _ _ _ _ _ _ _ Hlt Hk Hg Hu), Hnil.
      eapply cstep_call.
      + eapply ole_trans; [exact (cden_fresh_le _ f (S f) _ _ _ _ _ _ Hm (le_S _ _ (le_n _)) (ckle_refl _))|exact (IH _ _ Hfs)].
      + intro w4. destruct c; [apply ole_refl|]. rewrite cden_call.
        apply aft_le; [apply ole_refl|intro; apply cclauses_up].
    - (* C_rule_none *) intros * Hlt Hk Hg Hu Hnil Hm H IH HL IHL fs k _ _ Hfs.
      destruct fs as [|f]; [lia|]. rewrite (cclauses_step _ _ _ _ _ _ _ _ _ _ _ Hlt Hk Hg Hu), Hnil.
      eapply ole_trans; [apply ole_bind; [|intro; apply ole_refl]|].
      { eapply ole_trans; [exact (cden_fresh_le _ f (S f) _ _ _ _ _ _ Hm (le_S _ _ (le_n _)) (ckle_refl _))|exact (IH _ _ Hfs)]. }
      pose proof (Next_dead H) as Dc.
      cbn [cstepto bind]. destruct c; cbn [sig_of].
      + destruct (proj2 (proj2 (dead_inert kb bf)) _ _ _ _ _ _ _ _ _ _ _ HL (or_introl eq_refl) Dc)
          as (-> & -> & -> & _).
        apply ole_refl.
      + rewrite after_body_nil. eapply ole_trans; [apply cclauses_up|].
        apply IHL; [reflexivity|exact Dc|exact Hfs].
  Qed.

  Lemma cden_step_rel nd w nd' r c w1 : Next kb bf nd w nd' r c w1 ->
    forall fs k R, (1 <= fs)%nat -> cden fs nd w k = Ok R -> cstepres fs k R nd' r c w1.
  Proof. intros H fs k R Hfs HD. apply cstepto_res. exact (proj1 cden_step_all _ _ _ _ _ _ H fs k Hfs R HD). Qed.

  Theorem cden_step F nd w nd' r c w1 fs k R :
    (1 <= fs)%nat -> next kb bf F nd w = Ok (nd', r, c, w1) -> cden fs nd w k = Ok R ->
    cstepres fs k R nd' r c w1.
  Proof. intros Hfs H. apply next_sound in H. now apply cden_step_rel. Qed.

  (* asking a query's node until it reports no answer *)
  Fixpoint ask_all (m F : nat) (nd : node) (w : world) : res (list subst * world) :=
    match m with
    | O => OutOfFuel
    | S m' =>
        do x <- next kb bf F nd w;
        let '(nd', r, _, w1) := x in
        match r with
        | None => Ok ([], w1)
        | Some s => do z <- ask_all m' F nd' w1; let '(a, w2) := z in Ok (s :: a, w2)
        end
    end.

  Definition collect : ckont := fun s w _ => Ok ([s], w, Go).

  (* one request to a query's node against what the node denotes for `collect` *)
  Lemma collect_step F nd w nd' r c w1 fs a wE g :
    ncutb nd = true -> (1 <= fs)%nat -> next kb bf F nd w = Ok (nd', r, c, w1) ->
    cden fs nd w collect = Ok (a, wE, g) ->
    ncutb nd' = true /\
    match r with
    | None => a = [] /\ wE = w1
    | Some s => exists a2 g2, cden fs nd' w1 collect = Ok (a2, wE, g2) /\ a = s :: a2
    end.
  Proof.
    intros Hn Hfs E1 HD. destruct (ncut_next _ _ _ _ _ _ _ Hn E1) as [-> Hn1]. split; [exact Hn1|].
    pose proof (cden_step _ _ _ _ _ _ _ _ _ _ Hfs E1 HD) as Hs. destruct r as [s|]; cbn [cstepres] in Hs.
    - destruct Hs as (a1 & w2 & g1 & Hk1 & Hs). injection Hk1 as <- <- <-.
      destruct Hs as (a2 & w3 & g2 & Hd2 & Heq). injection Heq as -> -> ->. now exists a2, g2.
    - injection Hs as -> -> ->. auto.
  Qed.

  Lemma ask_all_is_cden : forall m F nd w fs a wE g R',
    ncutb nd = true -> (1 <= fs)%nat -> cden fs nd w collect = Ok (a, wE, g) ->
    ask_all m F nd w = Ok R' -> R' = (a, wE).
  Proof.
    induction m as [|m IH]; intros F nd w fs a wE g R' Hn Hfs HD H; [discriminate|].
    cbn [ask_all] in H. ok H as [[[nd1 o1] b1] w1].
    destruct (collect_step _ _ _ _ _ _ _ _ _ _ _ Hn Hfs E HD) as [Hn1 Hs]. destruct o1 as [s|].
    - destruct Hs as (a2 & g2 & Hd2 & ->).
      destruct (ask_all m F nd1 w1) as [[a2' w3']| |] eqn:Ed; cbn [bind] in H; try discriminate.
      pose proof (IH _ _ _ _ _ _ _ _ Hn1 Hfs Hd2 Ed) as Heq. injection Heq as -> ->. now inversion H.
    - destruct Hs as [-> ->]. now inversion H.
  Qed.

  (* the node of a query denotes the reference answers of the query *)
  Lemma query_node_cden q w fs R nd w1 :
    canswers kb bf fs q w = Ok R -> make_base_node kb (GCall q) w = Ok (nd, w1) ->
    (1 <= fs)%nat /\ ncutb nd = true /\ exists g, cden fs nd w1 collect = Ok (fst R, snd R, g).
  Proof.
    intros Ha Hm. assert (make_node kb (GCall q) [] w = Ok (nd, w1)) as Hm' by exact Hm.
    split; [destruct fs; [discriminate Ha|lia]|]. split; [exact (make_node_ncut (GCall q) _ _ _ _ eq_refl Hm')|].
    unfold canswers in Ha. fold collect in Ha.
    destruct (csolve kb bf fs (GCall q) [] w collect) as [[[a wE] g]| |] eqn:Ec; try discriminate Ha.
    injection Ha as <-. exists g. exact (cden_fresh _ fs fs _ _ _ _ _ _ _ Hm' (le_n _) (ckle_refl _) Ec).
  Qed.

  (* The query level, for EVERY program (cut, not, time, built-ins, any nesting): if the reference
     search of query q finishes with answers R, and asking the query's node until it reports no
     answer finishes, then the answers, their order and multiplicity, and the final world
     (variable-id counter, stop flag, output) are R's. *)
  Theorem refines_cut q w fs R nd w1 m F R' :
    canswers kb bf fs q w = Ok R ->
    make_base_node kb (GCall q) w = Ok (nd, w1) ->
    ask_all m F nd w1 = Ok R' -> R' = R.
  Proof.
    intros Ha Hm Hd. destruct (query_node_cden _ _ _ _ _ _ Ha Hm) as (Hfs & Hn & g & HD).
    rewrite (ask_all_is_cden _ _ _ _ _ _ _ _ _ Hn Hfs HD Hd). now destruct R.
  Qed.
End CDen.

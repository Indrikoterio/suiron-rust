(* "No cut directly inside not(..) / time(..)": the programs the reference search of
   Spec/SpecCut.v does not refuse.  `gok` on goals (decidable, stable under renaming apart), `nok`
   on the engine's nodes; a node made from a gok goal is nok, and every request leaves a nok node
   nok (given that all clause bodies of the knowledge base are gok).  On a node the condition reads
   `ncutb` of the head of a not / time node: the goal the head was made from, and so its has_cut, cannot
   be read off the node; make_node_ncut (has_cut g = false gives ncutb of g's node) is the link. *)
From Coq Require Import Lia.
From Suiron Require Import Model.Term Model.Subst Model.Show Model.Lists Model.Arith Model.Unify
  Model.Compare Model.Builtins Model.Rename Model.Solve Spec.SpecCut
  Proofs.RenameProofs Proofs.SolveRel Proofs.SolveDead Proofs.RefinePlain Proofs.RefineCut.
Open Scope N_scope.

Fixpoint gok (g : goal) : bool :=
  match g with
  | GOp ONot gs | GOp OTime gs =>
      match gs with
      | g1 :: _ => negb (has_cut g1) && gok g1
      | [] => true
      end
  | GOp _ gs => forallb gok gs
  | _ => true
  end.

Definition kbok (kb : kbase) : Prop :=
  forall key rules, kb_get kb key = Some rules -> forallb (fun r => gok (r_body r)) rules = true.

Definition opt_ok (o : option node) (f : node -> bool) : bool :=
  match o with Some x => f x | None => true end.

Fixpoint nok (nd : node) : bool :=
  match nd with
  | NCall _ _ _ child _ _ => match child with Some c => nok c | None => true end
  | NOp k _ _ _ head tail optail =>
      (match k with
       | ONot | OTime => match head with Some h => ncutb h | None => true end
       | _ => true
       end) &&
      (match head with Some h => nok h | None => true end) &&
      (match tail with Some t => nok t | None => true end) &&
      (match optail with Some tl => forallb gok tl | None => true end)
  | NBip _ _ _ _ _ => true
  end.

Lemma nok_set_nobt nd : nok (set_nobt nd) = nok nd.
Proof. destruct nd; reflexivity. Qed.
Lemma nok_flag (c : bool) nd : nok nd = true -> nok (if c then set_nobt nd else nd) = true.
Proof. destruct c; [now rewrite nok_set_nobt|auto]. Qed.
Lemma nok_flag_opt (c : bool) o :
  match o with Some h => nok h | None => true end = true ->
  match (if c then set_nobt_opt o else o) with Some h => nok h | None => true end = true.
Proof. destruct c, o; cbn; auto. now rewrite nok_set_nobt. Qed.
Lemma ncutb_flag (c : bool) nd : ncutb nd = true -> ncutb (if c then set_nobt nd else nd) = true.
Proof. destruct c; [now rewrite ncutb_set_nobt|auto]. Qed.

Lemma nok_op_inv k ss b m head tail optail : nok (NOp k ss b m head tail optail) = true ->
  (match k with ONot | OTime => match head with Some h => ncutb h | None => true end | _ => true end) = true /\
  match head with Some h => nok h | None => true end = true /\
  match tail with Some t => nok t | None => true end = true /\
  match optail with Some tl => forallb gok tl | None => true end = true.
Proof.
  cbn [nok]. intro H. apply andb_true_iff in H as [H H4]. apply andb_true_iff in H as [H H3].
  apply andb_true_iff in H as [H1 H2]. auto.
Qed.
Lemma nok_op k ss b m head tail optail :
  (match k with ONot | OTime => match head with Some h => ncutb h | None => true end | _ => true end) = true ->
  match head with Some h => nok h | None => true end = true ->
  match tail with Some t => nok t | None => true end = true ->
  match optail with Some tl => forallb gok tl | None => true end = true ->
  nok (NOp k ss b m head tail optail) = true.
Proof. intros H1 H2 H3 H4. cbn [nok]. now rewrite H1, H2, H3, H4. Qed.

Lemma has_cut_erase : forall g, has_cut (erase_goal g) = has_cut g.
Proof.
  induction g as [k gs Hgs|f ts|t|] using goal_ind'; try reflexivity.
  - cbn [erase_goal]. rewrite !has_cut_op. induction Hgs as [|x l Hx _ IH]; [reflexivity|].
    cbn [map existsb]. now rewrite Hx, IH.
  - destruct ts; reflexivity.
Qed.

Lemma gok_erase : forall g, gok (erase_goal g) = gok g.
Proof.
  induction g as [k gs Hgs|f ts|t|] using goal_ind'; try reflexivity.
  - assert (forallb gok (map erase_goal gs) = forallb gok gs) as Hall.
    { induction Hgs as [|x l Hx _ IH]; [reflexivity|]. cbn [map forallb]. now rewrite Hx, IH. }
    destruct k; cbn [erase_goal gok]; try exact Hall.
    + destruct Hgs as [|x l Hx _]; [reflexivity|]. cbn [map]. now rewrite has_cut_erase, Hx.
    + destruct Hgs as [|x l Hx _]; [reflexivity|]. cbn [map]. now rewrite has_cut_erase, Hx.
  - destruct ts; reflexivity.
Qed.

Lemma get_rule_gok kb key idx ctr r ctr' :
  kbok kb -> get_rule kb key idx ctr = Ok (r, ctr') -> gok (r_body r) = true.
Proof. intro Hk. exact (get_rule_body gok _ _ _ _ _ _ gok_erase (Hk key)). Qed.

Section Inv.
  Variable kb : kbase.
  Variable bf : nat.
  Hypothesis Hkb : kbok kb.

  Lemma make_node_nok : forall g ss w nd w', gok g = true -> make_node kb g ss w = Ok (nd, w') -> nok nd = true.
  Proof.
    intros g ss w nd w' Hg H. pose proof (make_node_Made _ _ _ _ _ _ H) as M. clear H.
    induction M as [k h tl w hn w' M IH|f ts w|t key w _]; [|reflexivity..].
    destruct k; cbn [gok forallb] in Hg; apply andb_true_iff in Hg as [G1 G2]; apply nok_op; auto.
    all: apply negb_true_iff in G1; exact (make_node_ncut _ _ _ _ _ _ G1 (Made_make_node _ _ _ _ _ _ M)).
  Qed.

  Lemma make_node_nok_body key idx ctr r ctr' ss w nd w' :
    get_rule kb key idx ctr = Ok (r, ctr') -> make_node kb (r_body r) ss w = Ok (nd, w') -> nok nd = true.
  Proof. intro Hg. apply make_node_nok. exact (get_rule_gok _ _ _ _ _ _ Hkb Hg). Qed.

  (* a request to the head / to the tail of an operator node whose answer is the node's, given that the
     child stays nok (and, under not / time, without cut) *)
  Lemma nok_or_head ss b m h o h' (c : bool) b2 m2 : nok (NOp OOr ss b m (Some h) None o) = true ->
    (nok h = true -> nok h' = true) ->
    nok (NOp OOr ss b2 m2 (Some (if c then set_nobt h' else h')) None o) = true.
  Proof.
    intros Hn IH. destruct (nok_op_inv _ _ _ _ _ _ _ Hn) as (_ & Hh & _ & Ho).
    apply nok_op; [reflexivity|apply nok_flag, IH, Hh|reflexivity|exact Ho].
  Qed.
  Lemma nok_and_head ss b m h tail o h' (c : bool) : (nok h = true -> nok h' = true) -> nok h = true ->
    match tail with Some t => nok t | None => true end = true ->
    match o with Some tl => forallb gok tl | None => true end = true ->
    nok (NOp OAnd ss b m (Some (if c then set_nobt h' else h')) tail o) = true.
  Proof. intros IH Hh Ht Ho. apply nok_op; [reflexivity|apply nok_flag, IH, Hh|exact Ht|exact Ho]. Qed.
  Lemma nok_tail k ss b m head t o t' (c : bool) b2 m2 : nok (NOp k ss b m head (Some t) o) = true ->
    (nok t = true -> nok t' = true) -> match k with OAnd | OOr => True | _ => False end ->
    nok (NOp k ss b2 m2 (if c then set_nobt_opt head else head) (Some t') o) = true.
  Proof.
    intros Hn IH Hk. destruct (nok_op_inv _ _ _ _ _ _ _ Hn) as (_ & Hh & Ht & Ho).
    apply nok_op; [destruct k; try contradiction; reflexivity|apply nok_flag_opt, Hh|exact (IH Ht)|exact Ho].
  Qed.
  Lemma nok_halt_head k ss b m h t o h' (c : bool) b2 m2 : nok (NOp k ss b m (Some h) t o) = true ->
    (nok h = true -> nok h' = true) -> (ncutb h = true -> c = false /\ ncutb h' = true) ->
    match k with ONot | OTime => True | _ => False end ->
    nok (NOp k ss b2 m2 (Some (if c then set_nobt h' else h')) t o) = true.
  Proof.
    intros Hn IH Hc Hk. destruct (nok_op_inv _ _ _ _ _ _ _ Hn) as (Hc0 & Hh & Ht & Ho).
    apply nok_op; [|apply nok_flag, IH, Hh|exact Ht|exact Ho].
    destruct k; try contradiction; apply ncutb_flag, Hc, Hc0.
  Qed.

  Lemma nok_inv :
    (forall nd w nd' sol c w', Next kb bf nd w nd' sol c w' -> nok nd = true -> nok nd' = true) /\
    (forall ss nobt more head tail o acc w nd' sol c w',
       AndLoop kb bf ss nobt more head tail o acc w nd' sol c w' ->
       match head with Some h => nok h | None => true end = true ->
       match tail with Some t => nok t | None => true end = true ->
       match o with Some tl => forallb gok tl | None => true end = true -> nok nd' = true) /\
    (forall t ss nobt child idx n w nd' sol c w',
       CallLoop kb bf t ss nobt child idx n w nd' sol c w' ->
       match child with Some c0 => nok c0 | None => true end = true -> nok nd' = true).
  Proof.
    (* The parts of an operator node are nok (nok_op_inv); a child that is asked stays nok by its
       induction hypothesis, flagged or not (nok_flag, nok_flag_opt); a node made on the way is nok
       (make_node_nok, make_node_nok_body); the node that is left is put together again (nok_op).
       Under not and time the head has no cut, and keeps none (ncut_Next, ncutb_flag). *)
    apply Next_mut.
    - (* N_nobt *) intros. assumption.
    - (* N_bip_spent *) intros. assumption.
    - (* N_bip *) intros. reflexivity.
    - (* N_not_spent *) intros. assumption.
    - (* N_not *) intros * H IH Hn. exact (nok_halt_head _ _ _ _ _ _ _ _ _ _ _ Hn IH (ncut_Next _ _ _ _ _ _ _ _ H) I).
    - (* N_time_spent *) intros. assumption.
    - (* N_time *) intros * H IH Hn. exact (nok_halt_head _ _ _ _ _ _ _ _ _ _ _ Hn IH (ncut_Next _ _ _ _ _ _ _ _ H) I).
    - (* N_and_tail *) intros. eapply nok_tail; [eassumption..|exact I].
    - (* N_and_tail_none *) intros * _ IH _ IHa Hn. destruct (nok_op_inv _ _ _ _ _ _ _ Hn) as (_ & Hh & Ht & Ho).
      apply IHa; [apply nok_flag_opt, Hh|exact (IH Ht)|exact Ho].
    - (* N_and *) intros * _ IHa Hn. destruct (nok_op_inv _ _ _ _ _ _ _ Hn) as (_ & Hh & _ & Ho).
      apply IHa; [exact Hh|reflexivity|exact Ho].
    - (* N_or_tail *) intros. eapply nok_tail; [eassumption..|exact I].
    - (* N_or_empty *) intros. assumption.
    - (* N_or_head *) intros. eapply nok_or_head; eassumption.
    - (* N_or_last_none *) intros. eapply nok_or_head; eassumption.
    - (* N_or_last_nil *) intros. eapply nok_or_head; eassumption.
    - (* N_or_last_cut *) intros. eapply (nok_or_head _ _ _ _ _ _ true); eassumption.
    - (* N_or_next *) intros * _ IH Hm _ IH2 Hn. destruct (nok_op_inv _ _ _ _ _ _ _ Hn) as (_ & Hh & _ & Ho).
      apply nok_op; [reflexivity|apply nok_flag, IH, Hh| |exact Ho].
      apply IH2, (make_node_nok (GOp OOr (g :: tl)) _ _ _ _ Ho Hm).
    - (* N_call_child *) intros * _ IH Hn. exact (IH Hn).
    - (* N_call_child_none *) intros * _ _ _ IHc _. now apply IHc.
    - (* N_call *) intros * _ IHc _. now apply IHc.
    - (* A_none *) intros. now apply nok_op.
    - (* A_fail *) intros. eapply nok_and_head; eassumption.
    - (* A_last_none *) intros. eapply nok_and_head; eassumption.
    - (* A_last_nil *) intros. eapply nok_and_head; eassumption.
    - (* A_tail *) intros ss nobt more h tail g tl acc w h' s c w1 t w2 t' s2 c2 w3 _ IH Hm _ IH2 Hh Ht Ho.
      apply nok_op; [reflexivity|apply nok_flag, nok_flag, IH, Hh| |exact Ho].
      apply IH2, (make_node_nok (GOp OAnd (g :: tl)) _ _ _ _ Ho Hm).
    - (* A_loop *) intros * _ IH Hm _ IH2 _ IHa Hh Ht Ho.
      apply IHa; [apply nok_flag, nok_flag, IH, Hh| |exact Ho].
      apply IH2, (make_node_nok (GOp OAnd (g :: tl)) _ _ _ _ Ho Hm).
    - (* C_nobt *) intros. assumption.
    - (* C_end *) intros. assumption.
    - (* C_skip *) intros. auto.
    - (* C_fact *) intros. assumption.
    - (* C_rule *) intros * _ _ Eg _ _ Hm _ IH _. exact (IH (make_node_nok_body _ _ _ _ _ _ _ _ _ Eg Hm)).
    - (* C_rule_none *) intros * _ _ Eg _ _ Hm _ IH _ IHc _. exact (IHc (IH (make_node_nok_body _ _ _ _ _ _ _ _ _ Eg Hm))).
  Qed.

  Theorem nok_Next nd w nd' r c w1 : nok nd = true -> Next kb bf nd w nd' r c w1 -> nok nd' = true.
  Proof. intros Hn H. exact (proj1 nok_inv _ _ _ _ _ _ H Hn). Qed.

End Inv.

(* the decidable form of kbok *)
Definition kbokb (kb : kbase) : bool := forallb (fun e => forallb (fun r => gok (r_body r)) (snd e)) kb.

Lemma kbokb_kbok kb : kbokb kb = true -> kbok kb.
Proof.
  intros H key rules Hg. induction kb as [|[k rs] kb IH]; [discriminate|].
  cbn in H, Hg. apply andb_true_iff in H as [H1 H2].
  destruct (str_eqb k key); [inversion Hg; subst; exact H1|auto].
Qed.

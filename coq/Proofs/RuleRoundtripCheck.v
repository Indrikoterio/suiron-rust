(* Executable tests for the classes of Proofs/GoalLeafParse.v and Proofs/RuleRoundtripClosed.v:
   closed_leafb / closed_goalb / closed_ruleb = true imply closed_leaf / closed_goal /
   closed_rule, hence the round trip with the real parsers. *)
From Coq Require Import Lia String.
From Suiron Require Import Model.Tokenizer Model.ParseRule Proofs.TokenizerStream Proofs.TokenizerProofs
  Proofs.GoalRoundtrip.
From Suiron Require Import Model.ParseTerm Model.ParseGoal Model.Show Model.ShowGoal.
From Suiron Require Import Proofs.TermRoundtrip Proofs.TermRoundtripComplex Proofs.TermRoundtripMain
  Proofs.TermRoundtripCheck Proofs.GoalLeafParse Proofs.RuleRoundtripClosed.
Open Scope N_scope.

Definition nonemptyb {A} (l : list A) : bool := match l with [] => false | _ => true end.

Fixpoint closed_leafb (l : goal) : bool :=
  match l with
  | GCall (TComplex [TAtom f]) => goal_functor0 f
  | GCall (TComplex (TAtom f :: ts)) => goal_functor f && nonemptyb ts && forallb canonicalb ts
  | GBip name (Some ts) =>
      if str_eqb name g_unify then
        match ts with
        | [a; b] => canonicalb a && canonicalb b
        | _ => false
        end
      else bip_name name && nonemptyb ts && forallb canonicalb ts
  | GBip name None => str_eqb name g_bang || str_eqb name g_fail || str_eqb name g_nl
  | GOp ONot [x] => closed_leafb x && negb (is_unify x)
  | GOp OTime [x] => closed_leafb x && negb (is_unify x)
  | _ => false
  end.

Fixpoint closed_goalb (g : goal) : bool :=
  match g with
  | GOp OAnd gs => (2 <=? length gs)%nat && forallb closed_goalb gs
  | GOp OOr gs => (2 <=? length gs)%nat && forallb closed_goalb gs
  | l => closed_leafb l
  end.

Definition closed_headb (h : term) : bool :=
  match h with
  | TComplex [TAtom f] => goal_functor0 f && (length (show_term h) <=? 1000)%nat
  | TComplex (TAtom f :: ts) =>
      goal_functor f && nonemptyb ts && forallb canonicalb ts && (length (show_term h) <=? 1000)%nat
  | _ => false
  end.

Definition closed_ruleb (r : rule) : bool :=
  closed_headb (r_head r) && (is_gnil (r_body r) || closed_goalb (r_body r)).

Lemma nonemptyb_ne {A} (l : list A) : nonemptyb l = true -> l <> [].
Proof. destruct l; [discriminate|discriminate]. Qed.

Lemma forallb_canonical ts : forallb canonicalb ts = true -> forall t, In t ts -> canonical t.
Proof. intros H t Ht. rewrite forallb_forall in H. apply canonicalb_sound. now apply H. Qed.

Theorem closed_leafb_sound : forall l, closed_leafb l = true -> closed_leaf l.
Proof.
  induction l as [k gs IH|name ots|t|] using goal_ind'; intros H; cbn [closed_leafb] in H;
    try discriminate.
  - destruct k; try discriminate.
    + destruct gs as [|x [|y gs']]; try discriminate. inversion IH as [|? ? IHx _]; subst.
      apply andb_true_iff in H as [Hx Hu]. apply negb_true_iff in Hu.
      apply cl_time; [now apply IHx|exact Hu].
    + destruct gs as [|x [|y gs']]; try discriminate. inversion IH as [|? ? IHx _]; subst.
      apply andb_true_iff in H as [Hx Hu]. apply negb_true_iff in Hu.
      apply cl_not; [now apply IHx|exact Hu].
  - destruct ots as [ts|].
    + destruct (str_eqb name g_unify) eqn:Eu.
      * apply str_eqb_eq in Eu. subst name.
        destruct ts as [|a [|b [|c ts']]]; try discriminate.
        apply andb_true_iff in H as [Ha Hb].
        apply cl_unify; now apply canonicalb_sound.
      * apply andb_true_iff in H as [H Hts]. apply andb_true_iff in H as [Hn Hne].
        apply cl_bip; [exact Hn|now apply nonemptyb_ne|now apply forallb_canonical].
    + apply orb_true_iff in H as [H|H]; [apply orb_true_iff in H as [H|H]|];
        apply str_eqb_eq in H; subst name; constructor.
  - destruct t as [| | | | | |ts| |]; try discriminate.
    destruct ts as [|[| |f| | | | | |] ts']; try discriminate.
    destruct ts' as [|t1 ts2]; [now apply cl_call0|].
    apply andb_true_iff in H as [H Hts]. apply andb_true_iff in H as [Hf Hne].
    apply cl_call; [exact Hf|now apply nonemptyb_ne|now apply forallb_canonical].
Qed.

Theorem closed_goalb_sound : forall g, closed_goalb g = true -> closed_goal g.
Proof.
  induction g as [k gs IH|name ots|t|] using goal_ind'; intros H.
  - assert (Hops : (2 <=? length gs)%nat && forallb closed_goalb gs = true ->
                   (2 <= length gs)%nat /\ forall g, In g gs -> closed_goal g).
    { intros H0. apply andb_true_iff in H0 as [Hlen Hgs]. apply Nat.leb_le in Hlen.
      split; [exact Hlen|]. intros g Hg. rewrite Forall_forall in IH. apply (IH g Hg).
      rewrite forallb_forall in Hgs. now apply Hgs. }
    destruct k; [apply cg_and; now apply Hops|apply cg_or; now apply Hops| |];
      apply cg_leaf; now apply closed_leafb_sound.
  - apply cg_leaf. now apply closed_leafb_sound.
  - apply cg_leaf. now apply closed_leafb_sound.
  - discriminate H.
Qed.

Theorem closed_ruleb_sound : forall r, closed_ruleb r = true -> closed_rule r.
Proof.
  intros [h b] H. unfold closed_ruleb in H. cbn [r_head r_body] in H.
  apply andb_true_iff in H as [Hh Hb]. split; cbn [r_head r_body].
  - unfold closed_headb in Hh.
    (* the bound is a unary numeral: it is kept abstract during the case analysis *)
    remember 1000%nat as n eqn:En in Hh.
    destruct h as [| | | | | |ts| |]; try discriminate.
    destruct ts as [|[| |f| | | | | |] ts']; try discriminate.
    destruct ts' as [|t1 ts2].
    { apply andb_true_iff in Hh as [Hf Hlen]. apply Nat.leb_le in Hlen. subst n. now apply ch_intro0. }
    apply andb_true_iff in Hh as [Hh Hlen]. apply andb_true_iff in Hh as [Hh Hts].
    apply andb_true_iff in Hh as [Hf Hne]. apply Nat.leb_le in Hlen. subst n.
    apply ch_intro; [exact Hf|now apply nonemptyb_ne|now apply forallb_canonical|exact Hlen].
  - apply orb_true_iff in Hb as [Hb|Hb].
    + left. destruct b; try discriminate. reflexivity.
    + right. now apply closed_goalb_sound.
Qed.

Lemma closed_rulesb_sound rs : forallb closed_ruleb rs = true -> Forall closed_rule rs.
Proof.
  intro H. apply Forall_forall. intros r Hr. apply closed_ruleb_sound.
  rewrite forallb_forall in H. now apply H.
Qed.


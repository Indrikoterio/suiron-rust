(* C01 (last sentence) and C23 (no-timeout clause): when no stop is pending - the flag is clear
   and no hook schedule is set - the search never raises the flag, solve_all never reports a
   timeout, and its list is exactly the reference answers, formatted, in order. *)
From Coq Require Import Lia.
From Suiron Require Import Model.Term Model.Subst Model.Show Model.Lists Model.Arith Model.Unify
  Model.Compare Model.Builtins Model.Rename Model.Solve Spec.SpecCut
  Proofs.SolveRel Proofs.SolveDead Proofs.SolveTimeout Proofs.RefinePlain Proofs.RefineCut.
Open Scope N_scope.

Definition quiet (w : world) : Prop := stop_after w = None /\ stop_flag w = false.

Lemma quiet_print w s : quiet w -> quiet (w_print w s).
Proof. intros [H1 H2]. split; assumption. Qed.
Lemma quiet_set_id w i : quiet w -> quiet (w_set_id w i).
Proof. intros [H1 H2]. split; assumption. Qed.
Lemma query_stopped_quiet w : quiet w -> query_stopped w = (false, w).
Proof. destruct w as [i fl af o]. intros [H1 H2]. simpl in *. subst. reflexivity. Qed.
Lemma quiet_count_rules kb key w : quiet w -> quiet (snd (count_rules kb key w)).
Proof. intro Hq. unfold count_rules. rewrite (query_stopped_quiet _ Hq). now destruct (kb_get kb key). Qed.
Lemma set_flag_quiet w : quiet w -> w_set_flag w false = w.
Proof. destruct w as [i fl af o]. intros [H1 H2]. simpl in *. subst. reflexivity. Qed.

Lemma quiet_make_node kb : forall g ss w nd w', quiet w -> make_node kb g ss w = Ok (nd, w') -> quiet w'.
Proof.
  intros g ss w nd w' Hq H. apply make_node_Made in H. induction H; auto using quiet_count_rules.
Qed.

Section Quiet.
  Variable kb : kbase.
  Variable bf : nat.

  Lemma quiet_inv :
    (forall nd w nd' sol c w', Next kb bf nd w nd' sol c w' -> quiet w -> quiet w') /\
    (forall ss nobt more head tail o acc w nd' sol c w',
       AndLoop kb bf ss nobt more head tail o acc w nd' sol c w' -> quiet w -> quiet w') /\
    (forall t ss nobt child idx n w nd' sol c w',
       CallLoop kb bf t ss nobt child idx n w nd' sol c w' -> quiet w -> quiet w').
  Proof.
    apply Next_mut; intros;
      repeat match goal with
      | IH : quiet ?w -> _, H : quiet ?w |- _ => specialize (IH H)
      | H : make_node _ _ _ _ = Ok _ |- _ => apply quiet_make_node in H; [|solve [auto using quiet_set_id]]
      end; auto using quiet_print, quiet_set_id.
  Qed.

  Theorem quiet_next F nd w nd' r c w1 : quiet w -> next kb bf F nd w = Ok (nd', r, c, w1) -> quiet w1.
  Proof. intros Hq H. now apply next_sound, quiet_inv in H. Qed.

  (* a call node stays a call node of the same goal *)
  Lemma goal_term_inv :
    (forall nd w nd' sol c w', Next kb bf nd w nd' sol c w' -> node_goal_term nd' = node_goal_term nd) /\
    (forall ss nobt more head tail o acc w nd' sol c w',
       AndLoop kb bf ss nobt more head tail o acc w nd' sol c w' -> node_goal_term nd' = None) /\
    (forall t ss nobt child idx n w nd' sol c w',
       CallLoop kb bf t ss nobt child idx n w nd' sol c w' -> node_goal_term nd' = Some t).
  Proof. apply Next_mut; intros; cbn [node_goal_term]; auto. Qed.

  (* asking until no answer, with whatever search fuel each request is given *)
  Inductive Drain : node -> world -> list subst -> world -> Prop :=
  | Drain_end F nd w nd' c w1 : next kb bf F nd w = Ok (nd', None, c, w1) -> Drain nd w [] w1
  | Drain_ans F nd w nd' s c w1 l w2 :
      next kb bf F nd w = Ok (nd', Some s, c, w1) -> Drain nd' w1 l w2 -> Drain nd w (s :: l) w2.

  Theorem drain_is_cden nd w l w' : Drain nd w l w' ->
    forall fs a wE g, ncutb nd = true -> (1 <= fs)%nat ->
      cden kb bf fs nd w (collect) = Ok (a, wE, g) -> (l, w') = (a, wE).
  Proof.
    induction 1 as [F nd w nd' c w1 E1|F nd w nd' s c w1 l w2 E1 _ IH]; intros fs a wE g Hn Hfs HD;
      destruct (collect_step _ _ _ _ _ _ _ _ _ _ _ _ _ Hn Hfs E1 HD) as [Hn1 Hs].
    - destruct Hs as [-> ->]. reflexivity.
    - destruct Hs as (a2 & g2 & Hd2 & ->). pose proof (IH _ _ _ _ Hn1 Hfs Hd2) as Heq. injection Heq as -> ->. reflexivity.
  Qed.

  Lemma drain_quiet nd w l w' : Drain nd w l w' -> quiet w -> quiet w'.
  Proof. induction 1; eauto using quiet_next. Qed.
End Quiet.

(* a freshly made query in a quiet world: its node denotes the reference search *)
Lemma fresh_query kb fuel q w fs R nd w1 :
  quiet w -> canswers kb fuel fs q w = Ok R -> make_base_node kb (GCall q) w = Ok (nd, w1) ->
  quiet w1 /\ node_goal_term nd = Some q /\ ncutb nd = true /\
  exists g, cden kb fuel fs nd w1 collect = Ok (fst R, snd R, g) /\ (1 <= fs)%nat.
Proof.
  intros Hq Ha Hm.
  assert (make_node kb (GCall q) [] w = Ok (nd, w1)) as Hm' by exact Hm.
  split; [exact (quiet_make_node _ _ _ _ _ _ Hq Hm')|]. split.
  { simpl in Hm. destruct (term_key q) as [key| |]; cbn [bind] in Hm; try discriminate.
    destruct (count_rules kb key w) as [n wc]. now inversion Hm. }
  destruct (query_node_cden _ _ _ _ _ _ _ _ Ha Hm) as (Hfs & Hn & g & HD). eauto.
Qed.

(* a Run of solve_all in a quiet world is a Drain, never stopped, and its texts are the
   formatted answers *)
Lemma run_quiet kb q fuel nd w l nd' w' b :
  Run kb q fuel nd w l nd' w' b -> quiet w ->
  b = false /\ exists ss, Drain kb fuel nd w ss w' /\
                          Forall2 (fun s txt => exists f, answer_text f q s = Ok txt) ss l.
Proof.
  induction 1 as [nd w nd' c w1 E Hf|nd w nd' sol c w1 E Hf|nd w nd1 s c w1 txt l nd' w' b E Hf Ht _ IH];
    intro Hq; pose proof (quiet_next _ _ _ _ _ _ _ _ _ Hq E) as Hq1; rewrite (query_stopped_quiet _ Hq1) in *; cbn [fst snd] in *.
  - split; [reflexivity|]. exists []. split; [eapply Drain_end; eauto|constructor].
  - discriminate.
  - destruct (IH Hq1) as (-> & ss & Hd & Hall). split; [reflexivity|].
    exists (s :: ss). split; [eapply Drain_ans; eauto|]. constructor; [now exists fuel|exact Hall].
Qed.

(* solve_all on a freshly made query, no stop pending: no timeout message, and the list is the
   reference answers (Spec/SpecCut.v), formatted as `$Var = value`, in order *)
Theorem solve_all_refines kb fuel q w fs R nd w1 nd' l w' :
  quiet w ->
  canswers kb fuel fs q w = Ok R ->
  make_base_node kb (GCall q) w = Ok (nd, w1) ->
  solve_all fuel kb nd w1 = Ok (nd', l, w') ->
  Forall2 (fun s txt => exists f, answer_text f q s = Ok txt) (fst R) l /\ w' = snd R.
Proof.
  intros Hq Ha Hm H.
  destruct (fresh_query _ _ _ _ _ _ _ _ Hq Ha Hm) as (Hq1 & Hg & Hn & g & HD & Hfs).
  destruct (solve_all_runs _ _ _ _ _ _ _ H) as (q0 & l0 & b & wr & Hg0 & Hr & -> & ->).
  rewrite Hg in Hg0. injection Hg0 as <-. rewrite (set_flag_quiet _ Hq1) in Hr.
  destruct (run_quiet _ _ _ _ _ _ _ _ _ Hr Hq1) as (_ & ss & Hd & Hall).
  pose proof (drain_quiet _ _ _ _ _ _ Hd Hq1) as Hqr.
  pose proof (drain_is_cden _ _ _ _ _ _ Hd _ _ _ _ Hn Hfs HD) as Heq. injection Heq as -> ->.
  rewrite (query_stopped_quiet _ Hqr). cbn [fst snd]. rewrite app_nil_r. split; [exact Hall|reflexivity].
Qed.

(* n requests, one after the other (also beyond exhaustion) *)
Section Requests.
  Variable kb : kbase.
  Variable bf : nat.

  Inductive Asks : node -> world -> list (option subst) -> node -> world -> Prop :=
  | Asks_nil nd w : Asks nd w [] nd w
  | Asks_cons F nd w nd1 r c w1 rs nd' w' :
      next kb bf F nd w = Ok (nd1, r, c, w1) -> Asks nd1 w1 rs nd' w' -> Asks nd w (r :: rs) nd' w'.

  Lemma asks_dead nd w rs nd' w' : Asks nd w rs nd' w' -> dead nd -> rs = repeat None (length rs) /\ w' = w /\ dead nd'.
  Proof.
    induction 1 as [nd w|F nd w nd1 r c w1 rs nd' w' E _ IH]; intro Hd; [auto|].
    destruct (dead_stays _ _ _ _ _ _ _ _ _ Hd E) as (-> & _ & -> & Hd1).
    destruct (IH Hd1) as (Hr & -> & Hd'). cbn [length repeat]. now rewrite <- Hr.
  Qed.

  (* the answers of n requests are the first n reference answers, then None for ever; once the
     answers are exhausted the world is the reference's final world and no longer changes *)
  Theorem asks_are_reference_answers nd w rs nd' w' : Asks nd w rs nd' w' ->
    forall fs a wE g, ncutb nd = true -> (1 <= fs)%nat -> cden kb bf fs nd w collect = Ok (a, wE, g) ->
      rs = map Some (firstn (length rs) a) ++ repeat None (length rs - length a) /\
      (length a < length rs -> w' = wE)%nat.
  Proof.
    induction 1 as [nd w|F nd w nd1 r c w1 rs nd' w' E1 HA IH]; intros fs a wE g Hn Hfs HD.
    { cbn. split; [reflexivity|lia]. }
    destruct (collect_step _ _ _ _ _ _ _ _ _ _ _ _ _ Hn Hfs E1 HD) as [Hn1 Hs]. destruct r as [s|].
    - destruct Hs as (a2 & g2 & Hd2 & ->).
      destruct (IH _ _ _ _ Hn1 Hfs Hd2) as [Hr Hw]. cbn [length firstn map app Nat.sub].
      split; [now rewrite <- Hr|]. intro Hlt. apply Hw. cbn [length] in Hlt. lia.
    - destruct Hs as [-> ->]. cbn [length firstn map app Nat.sub].
      assert (dead nd1) as Dd by (eapply none_then_dead; eauto).
      destruct (asks_dead _ _ _ _ _ HA Dd) as (Hr & -> & _). cbn [repeat]. split; [now rewrite <- Hr|]. reflexivity.
  Qed.
End Requests.

(* solve, called n times on a freshly made query with no stop pending: the texts are the first n
   reference answers formatted, then `No more.` for ever *)
Fixpoint solve_times (n : nat) (fuel : nat) (kb : kbase) (nd : node) (w : world) : res (list str * node * world) :=
  match n with
  | O => Ok ([], nd, w)
  | S n' =>
      do x <- solve fuel kb nd w;
      let '(nd1, txt, w1) := x in
      do y <- solve_times n' fuel kb nd1 w1;
      let '(txts, nd', w') := y in Ok (txt :: txts, nd', w')
  end.

Definition solve_text (fuel : nat) (q : term) (r : option subst) (txt : str) : Prop :=
  match r with Some s => answer_text fuel q s = Ok txt | None => txt = no_more end.

Lemma solve_times_asks kb fuel q : forall n nd w txts nd' w',
  quiet w -> node_goal_term nd = Some q ->
  solve_times n fuel kb nd w = Ok (txts, nd', w') ->
  exists rs, Asks kb fuel nd w rs nd' w' /\ Forall2 (solve_text fuel q) rs txts /\ length rs = n.
Proof.
  induction n as [|n IH]; intros nd w txts nd' w' Hq Hg H; cbn [solve_times] in H.
  { inversion H; subst. exists []. repeat split; constructor. }
  destruct (solve fuel kb nd w) as [[[nd1 txt] w1]| |] eqn:Es; cbn [bind] in H; try discriminate.
  destruct (solve_times n fuel kb nd1 w1) as [[[txts0 nd0] w0]| |] eqn:Et; cbn [bind] in H; try discriminate.
  inversion H; subst. clear H.
  destruct (solve_reports _ _ _ _ _ _ _ Es) as (sol & c & wa & En & -> & Ht).
  rewrite (set_flag_quiet _ Hq) in En.
  pose proof (quiet_next _ _ _ _ _ _ _ _ _ Hq En) as Hqa. rewrite (query_stopped_quiet _ Hqa) in *. cbn [fst snd] in *.
  assert (node_goal_term nd1 = Some q) as Hg1 by now rewrite (proj1 (goal_term_inv _ _) _ _ _ _ _ _ (next_sound _ _ _ _ _ _ _ _ _ En)).
  destruct (IH _ _ _ _ _ Hqa Hg1 Et) as (rs & HA & HF & <-).
  exists (sol :: rs). split; [eapply Asks_cons; eauto|]. split; [|reflexivity]. constructor; [|exact HF].
  destruct sol as [s|]; cbn [solve_text]; [|exact Ht].
  destruct Ht as (q' & Hq' & Htxt). rewrite Hg1 in Hq'. inversion Hq'; subst. exact Htxt.
Qed.

Theorem solve_refines kb fuel q w fs R nd w1 n txts nd' w' :
  quiet w ->
  canswers kb fuel fs q w = Ok R ->
  make_base_node kb (GCall q) w = Ok (nd, w1) ->
  solve_times n fuel kb nd w1 = Ok (txts, nd', w') ->
  Forall2 (solve_text fuel q) (map Some (firstn n (fst R)) ++ repeat None (n - length (fst R))) txts.
Proof.
  intros Hq Ha Hm H.
  destruct (fresh_query _ _ _ _ _ _ _ _ Hq Ha Hm) as (Hq1 & Hg & Hn & g & HD & Hfs).
  destruct (solve_times_asks kb fuel q n nd w1 txts nd' w' Hq1 Hg H) as (rs & HA & HF & <-).
  destruct (asks_are_reference_answers _ _ _ _ _ _ _ HA _ _ _ _ Hn Hfs HD) as [Hr _].
  rewrite <- Hr. exact HF.
Qed.

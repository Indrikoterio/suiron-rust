(* Proofs about the source-file reader (Model/Reader.v) against Spec/SpecLoad.v:
   totality of every reader function, and `load_spec`: reading the rendering of rule
   texts in a legal layout gives back the texts, up to white space at the cut points.

   The plan of `load_spec`:
   (a) the line loop `rf_loop`, run over the rendered pieces, strips decoration and comments
       (`strip_line`) and builds the long line `fold_left app_line (expected ..) []`
       (`rf_loop_piece`, `rf_loop_pieces`, `rf_loop_rules`);
   (b) that long line is R1 ++ " " ++ R2 ++ " " ++ ... (`sp_rules`, `fold_app_line_nonempty`), each
       Ri one rule, trimmed (`rule_as_read`, from `rules_expected`);
   (c) the loop of separate_rules is `sep`, a scan over the lexical state of Spec/SpecLoad.v
       (`sr_loop_sep`), and cuts such a line back into the Ri (`sep_one_rule`, `sep_rules`,
       `read_long_line`). *)
From Suiron Require Import Model.Reader Spec.SpecLoad.
From Coq Require Import Lia.
Open Scope N_scope.

Lemma ws_coarse c : rd_is_ws c = true -> c <= 32 \/ 133 <= c <= 160 \/ 5760 <= c.
Proof.
  unfold rd_is_ws. intro H.
  repeat (apply orb_true_iff in H as [H|H]);
    try (apply andb_true_iff in H as [H1 H2]; apply N.leb_le in H1; apply N.leb_le in H2);
    try apply N.eqb_eq in H; lia.
Qed.

Lemma ws_not c d : rd_is_ws c = true -> rd_is_ws d = false -> (c =? d) = false.
Proof.
  intros Hc Hd. apply N.eqb_neq. intro E. subst. congruence.
Qed.

Lemma ws_not_digit c : rd_is_ws c = true -> rd_is_digit c = false.
Proof.
  intro H. apply ws_coarse in H. unfold rd_is_digit.
  destruct (48 <=? c) eqn:E1; [|reflexivity]. destruct (c <=? 57) eqn:E2; [|reflexivity].
  apply N.leb_le in E1. apply N.leb_le in E2. lia.
Qed.

Lemma cont_cases c : is_cont c = true -> c = ch_dash \/ c = ch_comma \/ c = ch_semicolon \/ c = ch_equals.
Proof.
  unfold is_cont. intro H. repeat (apply orb_true_iff in H as [H|H]); apply N.eqb_eq in H; auto.
Qed.

Lemma cont_not_digit c : is_cont c = true -> rd_is_digit c = false.
Proof. intro H. apply cont_cases in H as [H|[H|[H|H]]]; subst; reflexivity. Qed.

Lemma cont_not_ws c : is_cont c = true -> rd_is_ws c = false.
Proof. intro H. apply cont_cases in H as [H|[H|[H|H]]]; subst; reflexivity. Qed.

Lemma cont_not_period c : is_cont c = true -> (c =? ch_period) = false.
Proof. intro H. apply cont_cases in H as [H|[H|[H|H]]]; subst; reflexivity. Qed.

Definition plain (c : N) : bool :=
  negb (c =? ch_lparen) && negb (c =? ch_lbrack) && negb (c =? ch_rparen) &&
  negb (c =? ch_rbrack) && negb (c =? ch_quote).

Lemma lex_step_plain st c : plain c = true -> lex_step st c = st.
Proof.
  unfold plain, lex_step. intro H.
  repeat (apply andb_true_iff in H as [H ?]).
  repeat match goal with X : negb _ = true |- _ => apply negb_true_iff in X; rewrite X; clear X end.
  reflexivity.
Qed.

Lemma ws_plain c : rd_is_ws c = true -> plain c = true.
Proof.
  intro H. unfold plain.
  rewrite (ws_not c ch_lparen H), (ws_not c ch_lbrack H), (ws_not c ch_rparen H),
    (ws_not c ch_rbrack H), (ws_not c ch_quote H); reflexivity.
Qed.

Lemma lex_step_ws st c : rd_is_ws c = true -> lex_step st c = st.
Proof. intro H. apply lex_step_plain, ws_plain, H. Qed.

Lemma lex_scan_ws st w : all_ws w = true -> lex_scan st w = st.
Proof.
  revert st. induction w as [|c w IH]; intros st H; [reflexivity|].
  cbn in H. apply andb_true_iff in H as [Hc Hw].
  unfold lex_scan. cbn [fold_left]. rewrite lex_step_ws by exact Hc. apply IH, Hw.
Qed.

Lemma lex_scan_app st a b : lex_scan st (a ++ b) = lex_scan (lex_scan st a) b.
Proof. unfold lex_scan. apply fold_left_app. Qed.

Lemma lex_scan_cons st c s : lex_scan st (c :: s) = lex_scan (lex_step st c) s.
Proof. reflexivity. Qed.

Lemma all_ws_app a b : all_ws (a ++ b) = all_ws a && all_ws b.
Proof. unfold all_ws. apply forallb_app. Qed.

Lemma outside_lex0 st : outside st = true -> st = lex0.
Proof.
  destruct st as [r s q]. unfold outside. cbn. intro H.
  apply andb_true_iff in H as [H Hq]. apply andb_true_iff in H as [Hr Hs].
  apply Z.eqb_eq in Hr. apply Z.eqb_eq in Hs. apply negb_true_iff in Hq. subst. reflexivity.
Qed.

Lemma last_app_default {A} (a b : list A) d : last (a ++ b) d = last b (last a d).
Proof. apply last_app_any. Qed.

Lemma trim_start_ws w s : all_ws w = true -> rd_trim_start (w ++ s) = rd_trim_start s.
Proof.
  induction w as [|c w IH]; intro H; [reflexivity|].
  cbn in H. apply andb_true_iff in H as [Hc Hw]. cbn. rewrite Hc. apply IH, Hw.
Qed.

Lemma trim_start_all_ws w : all_ws w = true -> rd_trim_start w = [].
Proof. intro H. rewrite <- (app_nil_r w). rewrite trim_start_ws by exact H. reflexivity. Qed.

Lemma trim_start_decomp s : exists l, all_ws l = true /\ s = l ++ rd_trim_start s.
Proof.
  induction s as [|c s [l [Hl E]]].
  - exists []. split; reflexivity.
  - cbn. destruct (rd_is_ws c) eqn:Hc.
    + exists (c :: l). split; [cbn; rewrite Hc; exact Hl|]. cbn. f_equal. exact E.
    + exists []. split; reflexivity.
Qed.

Lemma trim_start_hd s : rd_trim_start s = [] \/ rd_is_ws (hd_or_x (rd_trim_start s)) = false.
Proof.
  induction s as [|c s IH]; [left; reflexivity|].
  cbn. destruct (rd_is_ws c) eqn:Hc; [exact IH|]. right. exact Hc.
Qed.

Lemma trim_start_id s : rd_is_ws (hd_or_x s) = false -> rd_trim_start s = s.
Proof. destruct s as [|c s]; [reflexivity|]. cbn. intro H. rewrite H. reflexivity. Qed.

Lemma all_ws_rev w : all_ws (rev w) = all_ws w.
Proof.
  induction w as [|c w IH]; [reflexivity|].
  cbn [rev]. rewrite all_ws_app, IH. cbn. rewrite andb_true_r. apply andb_comm.
Qed.

Lemma trim_end_ws s w : all_ws w = true -> rd_trim_end (s ++ w) = rd_trim_end s.
Proof.
  intro H. unfold rd_trim_end. rewrite rev_app_distr.
  rewrite trim_start_ws; [reflexivity|]. rewrite all_ws_rev. exact H.
Qed.

Lemma trim_end_decomp s : exists r, all_ws r = true /\ s = rd_trim_end s ++ r.
Proof.
  destruct (trim_start_decomp (rev s)) as [l [Hl E]].
  exists (rev l). split; [rewrite all_ws_rev; exact Hl|].
  unfold rd_trim_end. rewrite <- rev_app_distr, <- E, rev_involutive. reflexivity.
Qed.

Lemma hd_rev_last (s : str) : hd_or_x (rev s) = last_or_x s.
Proof. exact (hd_rev s ch_x). Qed.

Lemma trim_end_id s : rd_is_ws (last_or_x s) = false -> rd_trim_end s = s.
Proof.
  intro H. unfold rd_trim_end. rewrite trim_start_id; [apply rev_involutive|].
  rewrite hd_rev_last. exact H.
Qed.

Lemma trim_end_last s : rd_trim_end s = [] \/ rd_is_ws (last_or_x (rd_trim_end s)) = false.
Proof.
  unfold rd_trim_end. destruct (trim_start_hd (rev s)) as [E|E].
  - left. rewrite E. reflexivity.
  - right. rewrite <- hd_rev_last, rev_involutive. exact E.
Qed.

Lemma trim_app_ws s w : all_ws w = true -> rd_trim (s ++ w) = rd_trim s.
Proof.
  intro H. induction s as [|c s IH].
  - unfold rd_trim. cbn [app]. rewrite trim_start_all_ws by exact H. reflexivity.
  - unfold rd_trim in *. cbn [app rd_trim_start]. destruct (rd_is_ws c); [exact IH|].
    change (c :: s ++ w) with ((c :: s) ++ w). apply trim_end_ws, H.
Qed.

Lemma trim_ws_app w s : all_ws w = true -> rd_trim (w ++ s) = rd_trim s.
Proof. intro H. unfold rd_trim. rewrite trim_start_ws by exact H. reflexivity. Qed.

Lemma trim_around w1 s w2 : all_ws w1 = true -> all_ws w2 = true -> rd_trim (w1 ++ s ++ w2) = rd_trim s.
Proof. intros H1 H2. rewrite trim_ws_app by exact H1. apply trim_app_ws, H2. Qed.

Lemma trim_all_ws w : all_ws w = true -> rd_trim w = [].
Proof. intro H. unfold rd_trim. rewrite trim_start_all_ws by exact H. reflexivity. Qed.

Lemma trim_id s : rd_is_ws (hd_or_x s) = false -> rd_is_ws (last_or_x s) = false -> rd_trim s = s.
Proof. intros H1 H2. unfold rd_trim. rewrite trim_start_id by exact H1. apply trim_end_id, H2. Qed.

Lemma trim_decomp s : exists l r, all_ws l = true /\ all_ws r = true /\ s = l ++ rd_trim s ++ r.
Proof.
  destruct (trim_start_decomp s) as [l [Hl E1]].
  destruct (trim_end_decomp (rd_trim_start s)) as [r [Hr E2]].
  exists l, r. repeat split; try assumption. unfold rd_trim. rewrite <- E2. exact E1.
Qed.

Lemma trim_ends s : rd_trim s = [] \/
  (rd_is_ws (hd_or_x (rd_trim s)) = false /\ rd_is_ws (last_or_x (rd_trim s)) = false).
Proof.
  unfold rd_trim. destruct (trim_end_last (rd_trim_start s)) as [E|E]; [left; exact E|].
  destruct (rd_trim_end (rd_trim_start s)) as [|c m] eqn:Em; [left; reflexivity|]. right.
  split; [|exact E].
  destruct (trim_end_decomp (rd_trim_start s)) as [r [Hr E2]]. rewrite Em in E2.
  destruct (trim_start_hd s) as [E3|E3]; [rewrite E3 in E2; discriminate|].
  rewrite E2 in E3. exact E3.
Qed.

Definition comment_start (st : lex) (prev c : N) : bool :=
  outside st && ((c =? ch_hash) || (c =? ch_percent) || ((c =? ch_slash) && (prev =? ch_slash))).

(* the loop of strip_comments_at in terms of the lexical state *)
Lemma sc_loop_cons c rest i st prev :
  sc_loop (c :: rest) i (l_rd st) (l_sd st) (l_inq st) prev =
  if outside st && ((c =? ch_hash) || (c =? ch_percent)) then Ok (Some i, l_rd st, l_sd st)
  else if outside st && ((c =? ch_slash) && (prev =? ch_slash)) then
    do j <- rd_usub i 1; Ok (Some j, l_rd st, l_sd st)
  else let st' := lex_step st c in sc_loop rest (S i) (l_rd st') (l_sd st') (l_inq st') c.
Proof.
  cbn [sc_loop]. unfold lex_step, outside.
  destruct (c =? ch_lparen) eqn:E1.
  { apply N.eqb_eq in E1. subst c. cbn. rewrite !andb_false_r. reflexivity. }
  destruct (c =? ch_lbrack) eqn:E2.
  { apply N.eqb_eq in E2. subst c. cbn. rewrite !andb_false_r. reflexivity. }
  destruct (c =? ch_rparen) eqn:E3.
  { apply N.eqb_eq in E3. subst c. cbn. rewrite !andb_false_r. reflexivity. }
  destruct (c =? ch_rbrack) eqn:E4.
  { apply N.eqb_eq in E4. subst c. cbn. rewrite !andb_false_r. reflexivity. }
  destruct (c =? ch_quote) eqn:E5.
  { apply N.eqb_eq in E5. subst c. cbn. rewrite !andb_false_r. reflexivity. }
  destruct ((l_rd st =? 0)%Z && (l_sd st =? 0)%Z && negb (l_inq st)) eqn:Eo; cbn [andb].
  - destruct ((c =? ch_hash) || (c =? ch_percent)); [reflexivity|].
    destruct ((c =? ch_slash) && (prev =? ch_slash)); reflexivity.
  - reflexivity.
Qed.

Lemma no_comment_cons st prev c s :
  no_comment st prev (c :: s) = negb (comment_start st prev c) && no_comment (lex_step st c) c s.
Proof.
  cbn [no_comment]. unfold comment_start. destruct (outside st && _); reflexivity.
Qed.

Lemma sc_loop_clean a : forall b i st prev,
  no_comment st prev a = true ->
  sc_loop (a ++ b) i (l_rd st) (l_sd st) (l_inq st) prev =
  let st' := lex_scan st a in
  sc_loop b (i + length a) (l_rd st') (l_sd st') (l_inq st') (last a prev).
Proof.
  induction a as [|c a IH]; intros b i st prev H.
  - cbn. rewrite Nat.add_0_r. reflexivity.
  - rewrite no_comment_cons in H. apply andb_true_iff in H as [H1 H2].
    apply negb_true_iff in H1. unfold comment_start in H1.
    rewrite andb_orb_distrib_r in H1. apply orb_false_iff in H1 as [Ea Eb].
    cbn [app]. rewrite sc_loop_cons.
    rewrite Ea, Eb. cbv zeta. rewrite IH by exact H2. cbv zeta.
    rewrite lex_scan_cons. replace (S i + length a)%nat with (i + length (c :: a))%nat by (cbn; lia).
    f_equal. symmetry. apply last_cons.
Qed.

Lemma last_all_ws w d : all_ws w = true -> w <> [] -> rd_is_ws (last w d) = true.
Proof.
  induction w as [|c w IH]; intros H Hn; [congruence|].
  cbn in H. apply andb_true_iff in H as [Hc Hw].
  destruct w as [|c' w]; [exact Hc|]. change (rd_is_ws (last (c' :: w) d) = true). apply IH; [exact Hw|discriminate].
Qed.

(* the previous character matters only if it is a slash *)
Lemma no_comment_prev st p p' s : (p' =? ch_slash) = false ->
  no_comment st p s = true -> no_comment st p' s = true.
Proof.
  intro H'. destruct s as [|c s]; [reflexivity|]. rewrite !no_comment_cons. unfold comment_start.
  rewrite H', andb_false_r, orb_false_r. intro H. apply andb_true_iff in H as [H1 H2]. rewrite H2, andb_true_r.
  apply negb_true_iff in H1. apply negb_true_iff.
  destruct (outside st); [|reflexivity]. cbn [andb] in *. now apply orb_false_iff in H1 as [-> _].
Qed.

Lemma ws_not_slash c : rd_is_ws c = true -> (c =? ch_slash) = false.
Proof. intro H. exact (ws_not c ch_slash H eq_refl). Qed.

Lemma no_comment_ws st p w : all_ws w = true -> no_comment st p w = true.
Proof.
  revert st p. induction w as [|c w IH]; intros st p H; [reflexivity|].
  cbn in H. apply andb_true_iff in H as [Hc Hw].
  rewrite no_comment_cons. unfold comment_start.
  rewrite (ws_not c ch_hash Hc), (ws_not c ch_percent Hc), (ws_not c ch_slash Hc) by reflexivity.
  cbn. rewrite andb_false_r. cbn. apply IH, Hw.
Qed.

Lemma no_comment_app st p a b :
  no_comment st p (a ++ b) = no_comment st p a && no_comment (lex_scan st a) (last a p) b.
Proof.
  revert st p. induction a as [|c a IH]; intros st p; [reflexivity|].
  cbn [app]. now rewrite !no_comment_cons, IH, lex_scan_cons, andb_assoc, last_cons.
Qed.

Lemma last_ws_not_slash w p : all_ws w = true -> (p =? ch_slash) = false -> (last w p =? ch_slash) = false.
Proof.
  intros H Hp. destruct w as [|c w]; [exact Hp|]. apply ws_not_slash. apply last_all_ws; [exact H|discriminate].
Qed.

Lemma slice_to_app a b : rd_slice_to (a ++ b) (length a) = Ok a.
Proof.
  unfold rd_slice_to. rewrite app_length.
  replace (length a <=? length a + length b)%nat with true by (symmetry; apply Nat.leb_le; lia).
  rewrite firstn_app, Nat.sub_diag, firstn_all. cbn. rewrite app_nil_r. reflexivity.
Qed.

(* a line: white space, text, white space, comment *)
Lemma strip_line st ind body trail cmt :
  l_inq st = false ->
  all_ws ind = true -> all_ws trail = true -> is_comment cmt = true ->
  no_comment st ch_x body = true ->
  is_empty cmt || outside (lex_scan st body) = true ->
  (last (ind ++ body ++ trail) ch_x =? ch_slash) = false ->
  strip_comments_at (ind ++ body ++ trail ++ cmt) (l_rd st) (l_sd st) =
  Ok (rd_trim body, l_rd (lex_scan st body), l_sd (lex_scan st body)).
Proof.
  intros Hq Hi Ht Hc Hn Ho Hl.
  unfold strip_comments_at. rewrite <- Hq.
  replace (ind ++ body ++ trail ++ cmt) with ((ind ++ body ++ trail) ++ cmt) by (rewrite <- !app_assoc; reflexivity).
  set (a := ind ++ body ++ trail) in *.
  assert (Hna : no_comment st ch_x a = true).
  { subst a. rewrite no_comment_app, no_comment_ws by exact Hi. cbn [andb].
    rewrite lex_scan_ws by exact Hi. rewrite no_comment_app.
    rewrite (no_comment_prev st ch_x (last ind ch_x) body) by (auto using last_ws_not_slash). cbn [andb]. apply no_comment_ws, Ht. }
  assert (Hsa : lex_scan st a = lex_scan st body).
  { subst a. rewrite !lex_scan_app. rewrite (lex_scan_ws st ind) by exact Hi. apply lex_scan_ws, Ht. }
  rewrite sc_loop_clean by exact Hna. cbv zeta. rewrite Hsa. cbn [plus].
  set (st' := lex_scan st body) in *.
  assert (Htrim : rd_trim a = rd_trim body) by (subst a; apply trim_around; assumption).
  destruct cmt as [|c0 r].
  - cbn [sc_loop bind]. rewrite app_nil_r, Htrim. reflexivity.
  - cbn [is_empty orb] in Ho. cbn [is_comment] in Hc.
    rewrite sc_loop_cons, Ho. cbn [andb].
    destruct ((c0 =? ch_hash) || (c0 =? ch_percent)) eqn:E1.
    + cbn [bind]. rewrite slice_to_app. cbn [bind]. rewrite Htrim. reflexivity.
    + cbn [orb] in Hc. apply andb_true_iff in Hc as [Hc0 Hc1].
      apply N.eqb_eq in Hc0. subst c0. rewrite Hl. cbn [andb].
      destruct r as [|c1 r]; [discriminate|]. cbn [hd_or_x] in Hc1. apply N.eqb_eq in Hc1. subst c1.
      cbv zeta. rewrite (lex_step_plain st' ch_slash) by reflexivity.
      rewrite sc_loop_cons, Ho. cbn [andb orb]. change (ch_slash =? ch_hash) with false.
      change (ch_slash =? ch_percent) with false. cbn [orb]. rewrite N.eqb_refl. cbn [andb].
      unfold rd_usub. cbn [Nat.leb]. cbn [bind]. rewrite Nat.sub_1_r. cbn [pred].
      rewrite slice_to_app. cbn [bind]. rewrite Htrim. reflexivity.
Qed.

Lemma nth_error_last (s : str) : s <> [] -> nth_error s (length s - 1) = Some (last_or_x s).
Proof.
  intro H. destruct s as [|c s] using rev_ind; [congruence|].
  rewrite app_length. cbn [length]. replace (length s + 1 - 1)%nat with (length s) by lia.
  rewrite nth_error_app2 by lia. rewrite Nat.sub_diag. unfold last_or_x. rewrite last_last. reflexivity.
Qed.

Definition line_end_ok (c : N) : bool := is_cont c || (c =? ch_period).

(* check_last_char: no message for an empty line or a line that ends as a line may end *)
Lemma check_last_char_spec line n : exists msg, check_last_char line n =
  Ok (if is_empty line || line_end_ok (last_or_x line) then None else Some msg).
Proof.
  unfold check_last_char. destruct (0 <? length line)%nat eqn:E.
  2:{ destruct line; [exists []; reflexivity|discriminate]. }
  apply Nat.ltb_lt in E. assert (Hne : line <> []) by (intros ->; cbn in E; lia).
  unfold rd_usub. replace (1 <=? length line)%nat with true by (symmetry; apply Nat.leb_le; lia).
  cbn [bind]. unfold rd_index. rewrite nth_error_last by exact Hne. cbn [bind].
  eexists. replace (is_empty line) with false by (destruct line; [congruence|reflexivity]).
  unfold line_end_ok, is_cont.
  destruct (last_or_x line =? ch_dash); [reflexivity|]. destruct (last_or_x line =? ch_comma); [reflexivity|].
  destruct (last_or_x line =? ch_period); [cbn; now rewrite !orb_true_r|].
  destruct (last_or_x line =? ch_equals); [cbn; now rewrite !orb_true_r|].
  destruct (last_or_x line =? ch_semicolon); reflexivity.
Qed.

Lemma check_last_ok line n : line_end_ok (last_or_x line) = true -> check_last_char line n = Ok None.
Proof. intro H. destruct (check_last_char_spec line n) as [msg ->]. now rewrite H, orb_true_r. Qed.

Definition app_line (ll line : str) : str :=
  (if (0 <? length ll)%nat then ll ++ [ch_space] else ll) ++ line.

Lemma rf_loop_skip line rest n ll rd sd rd' sd' :
  strip_comments_at line rd sd = Ok ([], rd', sd') ->
  rf_loop (line :: rest) n ll rd sd = rf_loop rest (n + 1) ll rd' sd'.
Proof. intro H. cbn [rf_loop]. rewrite H. reflexivity. Qed.

Lemma rf_loop_take line rest n ll rd sd m rd' sd' :
  strip_comments_at line rd sd = Ok (m, rd', sd') ->
  m <> [] -> line_end_ok (last_or_x m) = true ->
  rf_loop (line :: rest) n ll rd sd = rf_loop rest (n + 1) (app_line ll m) rd' sd'.
Proof.
  intros H Hne He. cbn [rf_loop]. rewrite H. cbn [bind].
  replace (0 <? length m)%nat with true by (symmetry; apply Nat.ltb_lt; destruct m; [congruence|cbn; lia]).
  rewrite check_last_ok by assumption. reflexivity.
Qed.

Lemma strip_blank st b : l_inq st = false -> blank_ok st b = true ->
  strip_comments_at (render_blank b) (l_rd st) (l_sd st) = Ok ([], l_rd st, l_sd st).
Proof.
  intros Hq H. unfold blank_ok in H.
  apply andb_true_iff in H as [H H3]. apply andb_true_iff in H as [H1 H2].
  unfold render_blank.
  pose proof (strip_line st (b_ws b) [] [] (b_comment b) Hq H1 eq_refl H2 eq_refl) as X.
  cbn [app lex_scan fold_left] in X. apply X; [exact H3|].
  rewrite app_nil_r. apply last_ws_not_slash; [exact H1|reflexivity].
Qed.

Lemma rf_loop_blanks bs : forall st rest n ll, l_inq st = false -> forallb (blank_ok st) bs = true ->
  exists n', rf_loop (map render_blank bs ++ rest) n ll (l_rd st) (l_sd st) =
             rf_loop rest n' ll (l_rd st) (l_sd st).
Proof.
  induction bs as [|b bs IH]; intros st rest n ll Hq H.
  - exists n. reflexivity.
  - cbn in H. apply andb_true_iff in H as [Hb Hbs].
    cbn [map app]. rewrite (rf_loop_skip _ _ _ _ _ _ _ _ (strip_blank st b Hq Hb)).
    apply IH; assumption.
Qed.

Lemma trim_start_last s : s <> [] -> rd_is_ws (last_or_x s) = false ->
  rd_trim_start s <> [] /\ last_or_x (rd_trim_start s) = last_or_x s.
Proof.
  intros Hs H. destruct (trim_start_decomp s) as [l [Hl E]].
  destruct (rd_trim_start s) as [|t0 ts].
  - exfalso. rewrite app_nil_r in E. subst l. unfold last_or_x in H.
    rewrite last_all_ws in H; [discriminate|exact Hl|exact Hs].
  - split; [discriminate|]. rewrite E. unfold last_or_x. symmetry. apply last_app_nonempty. discriminate.
Qed.

Lemma trim_last s : s <> [] -> rd_is_ws (last_or_x s) = false ->
  rd_trim s <> [] /\ last_or_x (rd_trim s) = last_or_x s.
Proof.
  intros Hs H. destruct (trim_start_last s Hs H) as [Hne El].
  unfold rd_trim. rewrite trim_end_id by (rewrite El; exact H). auto.
Qed.

Lemma piece_last final st p : piece_ok final st p = true ->
  if final then last_or_x (snd p) = ch_period else is_cont (last_or_x (rd_trim (snd p))) = true.
Proof.
  unfold piece_ok. intro H. repeat (apply andb_true_iff in H as [H ?]).
  destruct final; [now apply N.eqb_eq|assumption].
Qed.

Lemma piece_end final st p : piece_ok final st p = true ->
  rd_trim (snd p) <> [] /\ line_end_ok (last_or_x (rd_trim (snd p))) = true.
Proof.
  intro H. pose proof (piece_last _ _ _ H) as Hp. destruct final.
  - assert (Hw : rd_is_ws (last_or_x (snd p)) = false) by (rewrite Hp; reflexivity).
    assert (Hs : snd p <> []) by (intro E; rewrite E in Hp; discriminate).
    destruct (trim_last _ Hs Hw) as [Hne El]. split; [exact Hne|]. rewrite El, Hp. reflexivity.
  - split; [intro E; rewrite E in Hp; discriminate|]. unfold line_end_ok. rewrite Hp. reflexivity.
Qed.

Lemma piece_inq final st p : piece_ok final st p = true -> l_inq (lex_scan st (snd p)) = false.
Proof.
  unfold piece_ok. intro H. repeat (apply andb_true_iff in H as [H ?]).
  match goal with X : negb (l_inq _) = true |- _ => apply negb_true_iff in X; exact X end.
Qed.

Lemma line_end_not_slash c : line_end_ok c = true -> (c =? ch_slash) = false.
Proof.
  unfold line_end_ok. intro H. apply orb_true_iff in H as [H|H].
  - apply cont_cases in H as [H|[H|[H|H]]]; subst; reflexivity.
  - apply N.eqb_eq in H. subst. reflexivity.
Qed.

Lemma rf_loop_piece final st p rest n ll :
  l_inq st = false -> piece_ok final st p = true -> no_comment st ch_x (snd p) = true ->
  exists n', rf_loop (render_piece p ++ rest) n ll (l_rd st) (l_sd st) =
             rf_loop rest n' (app_line ll (rd_trim (snd p)))
                     (l_rd (lex_scan st (snd p))) (l_sd (lex_scan st (snd p))).
Proof.
  intros Hq Hp Hn. destruct (piece_end _ _ _ Hp) as [Hne Hend].
  unfold piece_ok in Hp. repeat (apply andb_true_iff in Hp as [Hp ?]).
  unfold render_piece. rewrite <- app_assoc.
  destruct (rf_loop_blanks (d_before (fst p)) st
              ([d_indent (fst p) ++ snd p ++ d_trail (fst p) ++ d_comment (fst p)] ++ rest) n ll Hq Hp) as [n1 E1].
  eexists. refine (eq_trans E1 _). cbn [app].
  apply rf_loop_take; [|exact Hne|exact Hend].
  apply strip_line; try assumption.
  (* the last character of the padded text is white space, or that of the trimmed_pieces text *)
  pose proof (trim_around (d_indent (fst p)) (snd p) (d_trail (fst p))) as Et.
  set (a := d_indent (fst p) ++ snd p ++ d_trail (fst p)) in *. fold (last_or_x a).
  destruct (rd_is_ws (last_or_x a)) eqn:Ew; [apply ws_not_slash, Ew|].
  assert (Ha : a <> []) by (intro E; rewrite E in Et; apply Hne; symmetry; now apply Et).
  destruct (trim_last a Ha Ew) as [_ El]. rewrite <- El, Et by assumption. apply line_end_not_slash, Hend.
Qed.

Definition bodies (ps : list (deco * str)) : list str := map snd ps.
Definition trimmed_pieces (ps : list (deco * str)) : list str := map (fun p => rd_trim (snd p)) ps.

Lemma pieces_ok_cons st p ps : pieces_ok st (p :: ps) = true ->
  piece_ok (is_empty ps) st p = true /\ (ps = [] \/ pieces_ok (lex_scan st (snd p)) ps = true).
Proof.
  destruct ps as [|p2 ps]; cbn [pieces_ok is_empty]; [auto|].
  intro H. apply andb_true_iff in H as [H1 H2]. auto.
Qed.

Lemma rf_loop_pieces ps : forall st rest n ll,
  l_inq st = false -> pieces_ok st ps = true -> no_comment st ch_x (concat (bodies ps)) = true ->
  let st' := lex_scan st (concat (bodies ps)) in
  l_inq st' = false /\
  exists n', rf_loop (flat_map render_piece ps ++ rest) n ll (l_rd st) (l_sd st) =
             rf_loop rest n' (fold_left app_line (trimmed_pieces ps) ll) (l_rd st') (l_sd st').
Proof.
  induction ps as [|p ps IH]; intros st rest n ll Hq Hok Hn; [discriminate|].
  destruct (pieces_ok_cons _ _ _ Hok) as [Hp Hps]. pose proof (piece_inq _ _ _ Hp) as Hq'.
  cbn [bodies map concat] in Hn. rewrite no_comment_app in Hn. apply andb_true_iff in Hn as [Hn1 Hn2].
  apply (no_comment_prev _ _ ch_x) in Hn2; [|reflexivity].
  cbn [bodies map concat flat_map trimmed_pieces fold_left]. rewrite lex_scan_app. rewrite <- app_assoc.
  destruct (rf_loop_piece _ st p (flat_map render_piece ps ++ rest) n ll Hq Hp Hn1) as [n1 E1]. rewrite E1.
  destruct Hps as [->|Hps].
  - split; [exact Hq'|]. exists n1. reflexivity.
  - apply (IH _ rest n1 _ Hq' Hps Hn2).
Qed.

(* the loop of separate_rules as a function of the lexical state, the previous character
   and the rest of the text *)
Fixpoint sep (st : lex) (prev : N) (cur : str) (s : str) (acc : list str) : list str * str * lex :=
  match s with
  | [] => (acc, cur, st)
  | c :: s' =>
      if ends_rule st prev c (hd_or_x s') then sep st c [] s' (acc ++ [cur ++ [c]])
      else sep (lex_step st c) c (cur ++ [c]) s' acc
  end.

Lemma rev_case {A} (l : list A) : l = [] \/ exists l' x, l = l' ++ [x].
Proof. destruct l as [|x l'] using rev_ind; [left; reflexivity|right; eauto]. Qed.

Lemma is_decimal_point_spec pre c rest :
  is_decimal_point (pre ++ c :: rest) (length pre) =
  Ok (rd_is_digit (last pre ch_x) && rd_is_digit (hd_or_x rest)).
Proof.
  unfold is_decimal_point. rewrite app_length. cbn [length].
  destruct (rev_case pre) as [Ep|[pre0 [p0 Ep]]]; subst pre.
  - cbn. reflexivity.
  - rewrite app_length. cbn [length].
    replace (length pre0 + 1 =? 0)%nat with false by (symmetry; apply Nat.eqb_neq; lia).
    cbn [orb]. destruct rest as [|r0 rest].
    + cbn [length]. match goal with |- (if ?b then _ else _) = _ => replace b with true by (symmetry; apply Nat.leb_le; lia) end.
      cbn [hd_or_x]. change (rd_is_digit ch_x) with false. rewrite andb_false_r. reflexivity.
    + cbn [length]. match goal with |- (if ?b then _ else _) = _ => replace b with false by (symmetry; apply Nat.leb_gt; lia) end.
      unfold rd_usub. replace (1 <=? length pre0 + 1)%nat with true by (symmetry; apply Nat.leb_le; lia).
      cbn [bind]. unfold rd_index.
      replace (length pre0 + 1 - 1)%nat with (length pre0) by lia.
      rewrite <- app_assoc. cbn [app]. rewrite nth_error_mid. cbn [bind].
      replace (length pre0 + 1 + 1)%nat with (length (pre0 ++ [p0; c])) by (rewrite app_length; cbn; lia).
      replace (pre0 ++ p0 :: c :: r0 :: rest) with ((pre0 ++ [p0; c]) ++ r0 :: rest)
        by (rewrite <- app_assoc; reflexivity).
      rewrite nth_error_mid. cbn [bind hd_or_x]. rewrite last_last. reflexivity.
Qed.


Lemma even_succ_negb n : N.even (n + 1) = negb (N.even n).
Proof. rewrite N.add_1_r, N.even_succ. rewrite <- N.negb_even. reflexivity. Qed.

Definition sep_result (r : list str * str * lex) : list str * str * Z * Z :=
  let '(acc, cur, st) := r in (acc, cur, l_rd st, l_sd st).

Lemma sr_loop_sep rest : forall pre cur rules st nq,
  l_inq st = negb (N.even nq) ->
  sr_loop (pre ++ rest) rest (length pre) cur rules (l_rd st) (l_sd st) nq =
  Ok (sep_result (sep st (last pre ch_x) cur rest rules)).
Proof.
  induction rest as [|c rest IH]; intros pre cur rules st nq Hq; [reflexivity|].
  assert (Hnext : forall cur' rules' st' nq', l_inq st' = negb (N.even nq') ->
            sr_loop (pre ++ c :: rest) rest (S (length pre)) cur' rules' (l_rd st') (l_sd st') nq' =
            Ok (sep_result (sep st' c cur' rest rules'))).
  { intros cur' rules' st' nq' Hq'.
    replace (pre ++ c :: rest) with ((pre ++ [c]) ++ rest) by (rewrite <- app_assoc; reflexivity).
    replace (S (length pre)) with (length (pre ++ [c])) by (rewrite app_length; cbn; lia).
    rewrite IH by exact Hq'. rewrite last_last. reflexivity. }
  (* the test for the end of a rule *)
  assert (He : (if (c =? ch_period) && (l_rd st =? 0)%Z && (l_sd st =? 0)%Z && N.even nq
                then do d <- is_decimal_point (pre ++ c :: rest) (length pre); Ok (negb d)
                else Ok false) = Ok (ends_rule st (last pre ch_x) c (hd_or_x rest))).
  { unfold ends_rule, outside. rewrite Hq, negb_involutive, is_decimal_point_spec.
    destruct (c =? ch_period), (l_rd st =? 0)%Z, (l_sd st =? 0)%Z, (N.even nq); reflexivity. }
  cbn [sr_loop sep]. rewrite He. cbn [bind].
  destruct (ends_rule st (last pre ch_x) c (hd_or_x rest)); [apply Hnext, Hq|].
  unfold lex_step.
  destruct (c =? ch_lparen); [apply (Hnext _ _ (mkLex _ _ _)); exact Hq|].
  destruct (c =? ch_lbrack); [apply (Hnext _ _ (mkLex _ _ _)); exact Hq|].
  destruct (c =? ch_rparen); [apply (Hnext _ _ (mkLex _ _ _)); exact Hq|].
  destruct (c =? ch_rbrack); [apply (Hnext _ _ (mkLex _ _ _)); exact Hq|].
  destruct (c =? ch_quote); [|apply Hnext, Hq].
  apply (Hnext _ _ (mkLex _ _ _)). cbn [l_inq]. rewrite even_succ_negb, Hq. reflexivity.
Qed.

Lemma sr_loop_text text :
  sr_loop text text 0 [] [] 0%Z 0%Z 0 = Ok (sep_result (sep lex0 ch_x [] text [])).
Proof. exact (sr_loop_sep text [] [] [] lex0 0 eq_refl). Qed.

Lemma separate_rules_ok text rules cur st :
  sep lex0 ch_x [] text [] = (rules, cur, st) ->
  l_rd st = 0%Z -> l_sd st = 0%Z -> rd_trim cur = [] ->
  separate_rules text = Ok (ROk rules).
Proof.
  intros H Hr Hs Hc. unfold separate_rules. rewrite sr_loop_text, H. cbn [sep_result bind].
  rewrite Hr, Hs. change (unmatched_bracket cur 0 0) with (@Ok (option str) None). cbn [bind]. rewrite Hc. reflexivity.
Qed.

Lemma ends_rule_next st prev c n n' : rd_is_digit n = rd_is_digit n' ->
  ends_rule st prev c n = ends_rule st prev c n'.
Proof. intro H. unfold ends_rule. rewrite H. reflexivity. Qed.

Lemma ends_rule_prev st p p' c n : rd_is_digit p = rd_is_digit p' ->
  ends_rule st p c n = ends_rule st p' c n.
Proof. intro H. unfold ends_rule. rewrite H. reflexivity. Qed.

Lemma ends_rule_outside st prev c n : ends_rule st prev c n = true -> outside st = true /\ c = ch_period.
Proof.
  unfold ends_rule. intro H. apply andb_true_iff in H as [H _]. apply andb_true_iff in H as [H1 H2].
  apply N.eqb_eq in H1. auto.
Qed.

Lemma sep_one_rule R : forall st prev cur rest acc,
  one_rule st prev R = true -> rd_is_digit (hd_or_x rest) = false ->
  sep st prev cur (R ++ rest) acc = sep lex0 ch_period [] rest (acc ++ [cur ++ R]).
Proof.
  induction R as [|c R IH]; intros st prev cur rest acc H Hd; [discriminate|].
  cbn [one_rule] in H. cbn [app sep].
  destruct R as [|c2 R].
  - cbn [app hd_or_x] in *.
    rewrite (ends_rule_next st prev c (hd_or_x rest) ch_x) by (rewrite Hd; reflexivity).
    destruct (ends_rule st prev c ch_x) eqn:E.
    + apply ends_rule_outside in E as [Eo Ec]. apply outside_lex0 in Eo. subst. reflexivity.
    + cbn [one_rule] in H. discriminate.
  - cbn [app hd_or_x] in *. destruct (ends_rule st prev c c2) eqn:E; [discriminate|].
    rewrite (IH _ _ _ _ _ H Hd). rewrite <- app_assoc. reflexivity.
Qed.

Lemma one_rule_prev st p p' s : rd_is_digit p = rd_is_digit p' -> one_rule st p s = one_rule st p' s.
Proof.
  intro H. destruct s as [|c s]; [reflexivity|]. cbn [one_rule].
  rewrite (ends_rule_prev st p p' c _ H). reflexivity.
Qed.

(* the long line of several rules: R1 ++ " " ++ R2 ++ " " ++ ... *)
Definition sp_rules (Rs : list str) : str := concat (map (cons ch_space) Rs).

Lemma sep_sp_rules Rs : forall prev acc,
  Forall (fun R => one_rule lex0 ch_x R = true) Rs ->
  sep lex0 prev [] (sp_rules Rs) acc = (acc ++ map (cons ch_space) Rs, [], lex0).
Proof.
  induction Rs as [|R Rs IH]; intros prev acc H.
  - cbn. rewrite app_nil_r. reflexivity.
  - inversion H as [|? ? HR HRs]; subst. unfold sp_rules. cbn [map concat].
    change ((ch_space :: R) ++ concat (map (cons ch_space) Rs)) with (ch_space :: (R ++ sp_rules Rs)).
    cbn [sep]. change (ends_rule lex0 prev ch_space (hd_or_x (R ++ sp_rules Rs))) with false. cbv iota.
    rewrite (lex_step_plain lex0 ch_space) by reflexivity. cbn [app].
    rewrite (sep_one_rule R lex0 ch_space [ch_space] (sp_rules Rs) acc).
    + rewrite IH by exact HRs. rewrite <- app_assoc. reflexivity.
    + rewrite (one_rule_prev lex0 ch_space ch_x) by reflexivity. exact HR.
    + destruct Rs; reflexivity.
Qed.

Lemma sep_rules R Rs :
  Forall (fun R => one_rule lex0 ch_x R = true) (R :: Rs) ->
  sep lex0 ch_x [] (R ++ sp_rules Rs) [] = (R :: map (cons ch_space) Rs, [], lex0).
Proof.
  intro H. inversion H as [|? ? HR HRs]; subst.
  rewrite (sep_one_rule R lex0 ch_x [] (sp_rules Rs) []); [|exact HR|destruct Rs; reflexivity].
  rewrite sep_sp_rules by exact HRs. reflexivity.
Qed.

Lemma cut_equiv_refl a : cut_equiv a a.
Proof. induction a; constructor; assumption. Qed.

Lemma cut_equiv_app m a b : cut_equiv a b -> cut_equiv (m ++ a) (m ++ b).
Proof. intro H. induction m; [exact H|]. cbn. constructor. assumption. Qed.

Lemma cut_equiv_hd a b : cut_equiv a b -> hd_or_x a = hd_or_x b /\ is_empty a = is_empty b.
Proof. intro H. destruct H; split; reflexivity. Qed.

Lemma last_ws_nondigit w c : all_ws w = true -> rd_is_digit c = false -> rd_is_digit (last w c) = false.
Proof.
  intros H Hc. destruct w as [|x w]; [exact Hc|].
  apply ws_not_digit. apply last_all_ws; [exact H|discriminate].
Qed.

Lemma ws_not_period c : rd_is_ws c = true -> (c =? ch_period) = false.
Proof. intro H. exact (ws_not c ch_period H eq_refl). Qed.

Lemma one_rule_ws w : forall st p s, all_ws w = true -> one_rule st p (w ++ s) = one_rule st (last w p) s.
Proof.
  induction w as [|c w IH]; intros st p s H; [reflexivity|].
  cbn in H. apply andb_true_iff in H as [Hc Hw].
  cbn [app one_rule]. unfold ends_rule. rewrite (ws_not_period c Hc). cbn [andb].
  rewrite lex_step_ws by exact Hc. rewrite IH by exact Hw. now rewrite last_cons.
Qed.

Lemma one_rule_cut_equiv a b : cut_equiv a b -> forall st p, one_rule st p a = one_rule st p b.
Proof.
  induction 1 as [|c a b H IH|c w1 w2 a b Hc H1 H2 H IH]; intros st p.
  - reflexivity.
  - cbn [one_rule]. destruct (cut_equiv_hd _ _ H) as [Eh Ee]. rewrite Eh, Ee, IH. reflexivity.
  - cbn [one_rule]. unfold ends_rule. rewrite (cont_not_period c Hc). cbn [andb].
    rewrite !one_rule_ws by assumption. rewrite <- IH.
    apply one_rule_prev. rewrite !last_ws_nondigit; auto using cont_not_digit.
Qed.

Lemma one_rule_last s : forall st p, one_rule st p s = true ->
  last_or_x s = ch_period /\ lex_scan st s = lex0.
Proof.
  induction s as [|c s IH]; intros st p H; [discriminate|].
  cbn [one_rule] in H. destruct (ends_rule st p c (hd_or_x s)) eqn:E.
  - destruct s; [|discriminate]. apply ends_rule_outside in E as [Eo Ec]. subst c.
    split; [reflexivity|]. rewrite lex_scan_cons, (lex_step_plain st ch_period) by reflexivity. apply outside_lex0, Eo.
  - destruct (IH _ _ H) as [H1 H2]. split.
    + destruct s as [|c2 s]; [discriminate|]. exact H1.
    + rewrite lex_scan_cons. exact H2.
Qed.

Lemma lay_concat more : forall d s, concat (bodies (lay d more s)) = s.
Proof.
  induction more as [|[n d'] more IH]; intros d s.
  - cbn. apply app_nil_r.
  - cbn [lay bodies map concat snd]. fold (bodies (lay d' more (skipn n s))). rewrite IH. apply firstn_skipn.
Qed.

Lemma join_sp_cons m ms : ms <> [] -> join_sp (m :: ms) = m ++ [ch_space] ++ join_sp ms.
Proof. destruct ms; [congruence|reflexivity]. Qed.

Lemma split_last (m : str) : m <> [] -> exists m0, m = m0 ++ [last_or_x m].
Proof.
  intro H. destruct (rev_case m) as [E|[m0 [c E]]]; [congruence|]. exists m0. subst m.
  unfold last_or_x. rewrite last_last. reflexivity.
Qed.

Lemma trim_start_app_nonws m s : m <> [] -> rd_is_ws (hd_or_x m) = false -> rd_trim_start (m ++ s) = m ++ s.
Proof. intros Hne H. destruct m as [|c m]; [congruence|]. cbn in *. rewrite H. reflexivity. Qed.

Lemma pieces_cut_equiv ps : forall st, pieces_ok st ps = true ->
  cut_equiv (rd_trim_start (concat (bodies ps))) (join_sp (trimmed_pieces ps)).
Proof.
  induction ps as [|p ps IH]; intros st H; [discriminate|].
  destruct ps as [|p2 ps].
  - cbn [pieces_ok] in H. cbn [bodies trimmed_pieces map concat join_sp]. rewrite app_nil_r.
    pose proof (piece_last _ _ _ H) as Hp. cbv iota in Hp.
    assert (Hs : snd p <> []) by (intro E; rewrite E in Hp; discriminate).
    destruct (trim_start_last _ Hs) as [_ El]; [rewrite Hp; reflexivity|].
    unfold rd_trim. rewrite trim_end_id by (rewrite El, Hp; reflexivity). apply cut_equiv_refl.
  - destruct (pieces_ok_cons _ _ _ H) as [Hp [Hps|Hps]]; [discriminate|]. cbn [is_empty] in Hp.
    specialize (IH _ Hps).
    destruct (piece_end _ _ _ Hp) as [Hne _].
    pose proof (piece_last _ _ _ Hp) as Hc. cbv iota in Hc.
    change (concat (bodies (p :: p2 :: ps))) with (snd p ++ concat (bodies (p2 :: ps))).
    change (trimmed_pieces (p :: p2 :: ps)) with (rd_trim (snd p) :: trimmed_pieces (p2 :: ps)).
    rewrite join_sp_cons by discriminate.
    remember (snd p) as b eqn:Eb. remember (concat (bodies (p2 :: ps))) as rest eqn:Erest.
    remember (join_sp (trimmed_pieces (p2 :: ps))) as J eqn:EJ. clear Eb Erest EJ.
    destruct (trim_decomp b) as [l [r [Hl [Hr E]]]].
    destruct (trim_ends b) as [E0|[Hh _]]; [congruence|].
    destruct (split_last _ Hne) as [m0 Em].
    destruct (trim_start_decomp rest) as [l' [Hl' E']].
    (* named, so that b occurs once: `rewrite .. at` is dear *)
    remember (rd_trim b) as m eqn:Etr. rewrite E. rewrite <- !app_assoc. rewrite trim_start_ws by exact Hl.
    rewrite trim_start_app_nonws by assumption.
    rewrite Em. rewrite <- !app_assoc. apply cut_equiv_app. cbn [app].
    rewrite E'. rewrite app_assoc.
    change (ch_space :: J) with ([ch_space] ++ J).
    apply ce_cut; [exact Hc| |reflexivity|exact IH].
    rewrite all_ws_app, Hr, Hl'. reflexivity.
Qed.

Lemma app_line_ne ll m : ll <> [] -> app_line ll m = ll ++ ch_space :: m.
Proof. destruct ll; [congruence|]. intros _. unfold app_line. cbn [length Nat.ltb Nat.leb]. now rewrite <- app_assoc. Qed.

Lemma fold_app_line_nonempty Rs : forall ll, ll <> [] -> fold_left app_line Rs ll = ll ++ sp_rules Rs.
Proof.
  induction Rs as [|R Rs IH]; intros ll H; [symmetry; apply app_nil_r|].
  cbn [fold_left]. rewrite app_line_ne by exact H. rewrite IH by (destruct ll; [congruence|discriminate]).
  unfold sp_rules. cbn [map concat]. now rewrite <- app_assoc.
Qed.

Lemma join_sp_sp_rules m ms : join_sp (m :: ms) = m ++ sp_rules ms.
Proof.
  revert m. induction ms as [|m2 ms IH]; intro m.
  - cbn. rewrite app_nil_r. reflexivity.
  - change (join_sp (m :: m2 :: ms)) with (m ++ [ch_space] ++ join_sp (m2 :: ms)). rewrite IH.
    unfold sp_rules. cbn [map concat]. reflexivity.
Qed.

(* only the first text has to be non-empty: after it the long line is *)
Lemma fold_app_line ms ll : hd [] ms <> [] -> fold_left app_line ms ll = app_line ll (join_sp ms).
Proof.
  destruct ms as [|m ms]; [intro H; now elim H|]. cbn [hd fold_left]. intro Hm.
  assert (Hne : app_line ll m <> []) by (unfold app_line; intro E; apply app_eq_nil in E as [_ E]; contradiction).
  rewrite fold_app_line_nonempty, join_sp_sp_rules by exact Hne. unfold app_line. now rewrite <- app_assoc.
Qed.

Lemma pieces_hd_nonempty ps st : pieces_ok st ps = true -> hd [] (trimmed_pieces ps) <> [].
Proof. destruct ps as [|p ps]; [discriminate|]. intro H. apply (piece_end _ _ _ (proj1 (pieces_ok_cons _ _ _ H))). Qed.

Definition rule_as_read (R : str) : Prop := one_rule lex0 ch_x R = true /\ rd_trim R = R /\ R <> [].

Lemma wf_text_parts t : wf_text t = true ->
  rd_is_ws (hd_or_x t) = false /\ one_rule lex0 ch_x t = true /\ no_comment lex0 ch_x t = true.
Proof.
  unfold wf_text. intro H. apply andb_true_iff in H as [H H3]. apply andb_true_iff in H as [H1 H2].
  apply negb_true_iff in H1. auto.
Qed.

Lemma expected_rule_as_read rl t :
  wf_text t = true -> pieces_ok lex0 (pieces rl t) = true ->
  cut_equiv t (expected_rule rl t) /\ rule_as_read (expected_rule rl t).
Proof.
  intros Hwf Hok. destruct (wf_text_parts _ Hwf) as [Hh [Ho _]].
  assert (Hce : cut_equiv t (expected_rule rl t)).
  { pose proof (pieces_cut_equiv _ _ Hok) as Hce.
    unfold pieces in Hce at 1. rewrite lay_concat in Hce. rewrite trim_start_id in Hce by exact Hh. exact Hce. }
  remember (expected_rule rl t) as R eqn:ER. clear ER.
  split; [exact Hce|].
  assert (Ho' : one_rule lex0 ch_x R = true).
  { rewrite <- (one_rule_cut_equiv _ _ Hce). exact Ho. }
  destruct (one_rule_last _ _ _ Ho') as [Hl _].
  split; [exact Ho'|]. split.
  - apply trim_id.
    + destruct (cut_equiv_hd _ _ Hce) as [Eh _]. rewrite <- Eh. exact Hh.
    + rewrite Hl. reflexivity.
  - intro E. rewrite E in Ho'. discriminate.
Qed.

Lemma rules_expected rls : forall texts,
  rules_ok rls texts = true -> forallb wf_text texts = true ->
  Forall2 cut_equiv texts (expected rls texts) /\ Forall rule_as_read (expected rls texts).
Proof.
  induction rls as [|rl rls IH]; intros [|t texts] Hok Hwf; try discriminate.
  - split; constructor.
  - cbn in Hok, Hwf. apply andb_true_iff in Hok as [Hp Hok]. apply andb_true_iff in Hwf as [Ht Hwf].
    destruct (IH _ Hok Hwf) as [H1 H2]. destruct (expected_rule_as_read rl t Ht Hp) as [H3 H4].
    cbn [expected]. split; constructor; assumption.
Qed.

Lemma rf_loop_rules rls : forall texts rest n ll,
  rules_ok rls texts = true -> forallb wf_text texts = true ->
  exists n', rf_loop (render_rules rls texts ++ rest) n ll 0%Z 0%Z =
             rf_loop rest n' (fold_left app_line (expected rls texts) ll) 0%Z 0%Z.
Proof.
  induction rls as [|rl rls IH]; intros [|t texts] rest n ll Hok Hwf; try discriminate.
  - exists n. reflexivity.
  - cbn in Hok, Hwf. apply andb_true_iff in Hok as [Hp Hok]. apply andb_true_iff in Hwf as [Ht Hwf].
    destruct (wf_text_parts _ Ht) as [_ [Ho Hn]].
    cbn [render_rules expected fold_left]. rewrite <- app_assoc.
    assert (Hc : concat (bodies (pieces rl t)) = t) by apply lay_concat.
    destruct (rf_loop_pieces (pieces rl t) lex0 (render_rules rls texts ++ rest) n ll eq_refl Hp) as [_ [n1 E1]].
    { rewrite Hc. exact Hn. }
    rewrite Hc in E1. destruct (one_rule_last _ _ _ Ho) as [_ Hs]. rewrite Hs in E1. cbn [l_rd l_sd lex0] in E1.
    rewrite fold_app_line in E1 by (eapply pieces_hd_nonempty; exact Hp).
    destruct (IH texts rest n1 (app_line ll (expected_rule rl t)) Hok Hwf) as [n2 E2].
    exists n2. etransitivity; [exact E1|]. exact E2.
Qed.

Lemma trim_sp_rule_as_read R : rule_as_read R -> rd_trim (ch_space :: R) = R.
Proof.
  intros [_ [H _]]. change (ch_space :: R) with ([ch_space] ++ R). rewrite trim_ws_app by reflexivity. exact H.
Qed.

Lemma map_trim_sp Rs : Forall rule_as_read Rs -> map rd_trim (map (cons ch_space) Rs) = Rs.
Proof.
  induction 1 as [|R Rs HR HRs IH]; [reflexivity|]. cbn [map]. rewrite trim_sp_rule_as_read by exact HR. rewrite IH. reflexivity.
Qed.

Lemma rule_as_read_one_rule Rs : Forall rule_as_read Rs -> Forall (fun R => one_rule lex0 ch_x R = true) Rs.
Proof. intro H. eapply Forall_impl; [|exact H]. intros R [H1 _]. exact H1. Qed.

Lemma read_long_line Rs : Forall rule_as_read Rs ->
  (do s <- separate_rules (fold_left app_line Rs []);
   match s with
   | ROk rules => Ok (ROk (map rd_trim rules))
   | RErr msg => Ok (RErr msg)
   end) = Ok (ROk Rs).
Proof.
  intro H. destruct Rs as [|R Rs].
  - reflexivity.
  - cbn [fold_left]. change (app_line [] R) with R.
    inversion H as [|? ? HR HRs]; subst.
    rewrite fold_app_line_nonempty by (destruct HR as [_ [_ HR]]; exact HR).
    rewrite (separate_rules_ok _ _ _ _ (sep_rules R Rs (rule_as_read_one_rule _ H))) by reflexivity.
    cbn [bind map]. rewrite map_trim_sp by exact HRs. destruct HR as [_ [HR _]]. rewrite HR. reflexivity.
Qed.

Theorem load_spec : forall L texts,
  legal L texts = true -> forallb wf_text texts = true ->
  read_facts_and_rules (render L texts) = Ok (ROk (expected (lay_rules L) texts)) /\
  Forall2 cut_equiv texts (expected (lay_rules L) texts).
Proof.
  intros L texts HL Hwf. unfold legal in HL. apply andb_true_iff in HL as [Hok Htr].
  destruct (rules_expected _ _ Hok Hwf) as [Hce Hgood]. split; [|exact Hce].
  unfold read_facts_and_rules, render.
  destruct (rf_loop_rules (lay_rules L) texts (map render_blank (lay_trailer L)) 1 [] Hok Hwf) as [n1 E1].
  rewrite E1.
  destruct (rf_loop_blanks (lay_trailer L) lex0 [] n1 (fold_left app_line (expected (lay_rules L) texts) []) eq_refl Htr)
    as [n2 E2].
  rewrite app_nil_r in E2. cbn [l_rd l_sd lex0] in E2. rewrite E2. cbn [rf_loop bind].
  apply read_long_line, Hgood.
Qed.

Lemma sc_loop_total rest : forall i st prev,
  ((prev =? ch_slash) = true -> (1 <= i)%nat) ->
  exists idx rd' sd', sc_loop rest i (l_rd st) (l_sd st) (l_inq st) prev = Ok (idx, rd', sd') /\
                      (forall j, idx = Some j -> (j <= i + length rest)%nat).
Proof.
  induction rest as [|c rest IH]; intros i st prev Hp.
  - exists None, (l_rd st), (l_sd st). split; [reflexivity|discriminate].
  - rewrite sc_loop_cons.
    destruct (outside st && ((c =? ch_hash) || (c =? ch_percent))).
    { exists (Some i), (l_rd st), (l_sd st). split; [reflexivity|]. intros j [= <-]. lia. }
    destruct (outside st && ((c =? ch_slash) && (prev =? ch_slash))) eqn:Es.
    { (* `i - 1` does not underflow: the previous character is the slash at index i - 1 *)
      apply andb_true_iff in Es as [_ Es]. apply andb_true_iff in Es as [_ Es]. specialize (Hp Es).
      unfold rd_usub. replace (1 <=? i)%nat with true by (symmetry; apply Nat.leb_le; exact Hp).
      exists (Some (i - 1)%nat), (l_rd st), (l_sd st). split; [reflexivity|]. intros j [= <-]. lia. }
    cbv zeta. destruct (IH (S i) (lex_step st c) c) as (idx & rd' & sd' & E & B); [intros; lia|].
    exists idx, rd', sd'. split; [exact E|]. intros j Hj. specialize (B j Hj). cbn [length]. lia.
Qed.

Lemma strip_comments_at_total line rd sd : exists r, strip_comments_at line rd sd = Ok r.
Proof.
  unfold strip_comments_at.
  destruct (sc_loop_total line 0 (mkLex rd sd false) ch_x) as [idx [rd' [sd' [E B]]]]; [discriminate|].
  cbn [l_rd l_sd l_inq] in E.
  rewrite E. cbn [bind]. destruct idx as [j|]; [|eexists; reflexivity].
  unfold rd_slice_to. specialize (B j eq_refl). cbn [plus] in B.
  replace (j <=? length line)%nat with true by (symmetry; apply Nat.leb_le; exact B).
  cbn [bind]. eexists. reflexivity.
Qed.

Lemma strip_comments_total line : exists r, strip_comments line = Ok r.
Proof.
  unfold strip_comments. destruct (strip_comments_at_total line 0 0) as [r E]. rewrite E. eexists. reflexivity.
Qed.

Lemma check_last_char_total line n : exists r, check_last_char line n = Ok r.
Proof. destruct (check_last_char_spec line n) as [msg ->]. eexists. reflexivity. Qed.

Lemma tel_loop_bound rest : forall index, (tel_loop rest index <= index + length rest)%nat.
Proof.
  induction rest as [|c rest IH]; intro index; cbn [tel_loop length]; [lia|].
  destruct (c =? ch_period); [lia|]. destruct (index =? 100)%nat; [lia|]. specialize (IH (S index)). lia.
Qed.

Lemma trim_error_line_total chrs : exists r, trim_error_line chrs = Ok r.
Proof.
  unfold trim_error_line, rd_slice_to. pose proof (tel_loop_bound chrs 0) as B. cbn [plus] in B.
  replace (tel_loop chrs 0 <=? length chrs)%nat with true by (symmetry; apply Nat.leb_le; exact B).
  eexists. reflexivity.
Qed.

(* a step that cannot fail after one that does not *)
Lemma bind_total {A B} (m : res A) (f : A -> B) :
  (exists a, m = Ok a) -> exists r, (do x <- m; Ok (f x)) = Ok r.
Proof. intros [a ->]. eexists. reflexivity. Qed.

Lemma unmatched_bracket_total line rd sd : exists r, unmatched_bracket line rd sd = Ok r.
Proof.
  unfold unmatched_bracket. destruct ((rd =? 0)%Z && (sd =? 0)%Z); [eexists; reflexivity|].
  (* the message texts leave the goal with bind_total *)
  apply bind_total. destruct (length (rd_trim_start line) =? 0)%nat; [eexists; reflexivity|].
  apply bind_total, trim_error_line_total.
Qed.

Lemma separate_rules_total text : exists r, separate_rules text = Ok r.
Proof.
  unfold separate_rules. rewrite sr_loop_text. destruct (sep lex0 ch_x [] text []) as [[rules cur] st].
  cbn [sep_result bind]. destruct (unmatched_bracket_total cur (l_rd st) (l_sd st)) as [u E]. rewrite E. cbn [bind].
  destruct u; [eexists; reflexivity|].
  destruct (0 <? length (rd_trim cur))%nat; [|eexists; reflexivity].
  apply bind_total, trim_error_line_total.
Qed.

Lemma rf_loop_total lines : forall n ll rd sd, exists r, rf_loop lines n ll rd sd = Ok r.
Proof.
  induction lines as [|line lines IH]; intros n ll rd sd; [eexists; reflexivity|].
  cbn [rf_loop]. destruct (strip_comments_at_total line rd sd) as [[[m rd'] sd'] E]. rewrite E. cbn [bind].
  destruct (0 <? length m)%nat; [|apply IH].
  destruct (check_last_char_total m n) as [c Ec]. rewrite Ec. cbn [bind].
  destruct c; [eexists; reflexivity|apply IH].
Qed.

Lemma sep_concat s : forall st prev cur acc rules cur' st',
  sep st prev cur s acc = (rules, cur', st') ->
  concat rules ++ cur' = concat acc ++ cur ++ s.
Proof.
  induction s as [|c s IH]; intros st prev cur acc rules cur' st' H.
  - cbn in H. inversion H; subst. rewrite app_nil_r. reflexivity.
  - cbn [sep] in H. destruct (ends_rule st prev c (hd_or_x s)).
    + apply IH in H. rewrite H. rewrite concat_app. cbn [concat]. rewrite app_nil_r, <- !app_assoc. reflexivity.
    + apply IH in H. rewrite H. rewrite <- !app_assoc. reflexivity.
Qed.

(* whatever separate_rules returns, glued together, is the text it was given, up to white
   space after the last rule *)
Theorem separate_rules_partition : forall text rules,
  separate_rules text = Ok (ROk rules) ->
  exists rest, all_ws rest = true /\ concat rules ++ rest = text.
Proof.
  intros text rules H. unfold separate_rules in H. rewrite sr_loop_text in H.
  destruct (sep lex0 ch_x [] text []) as [[rules0 cur] st] eqn:Es. cbn [sep_result bind] in H.
  destruct (unmatched_bracket_total cur (l_rd st) (l_sd st)) as [u E]. rewrite E in H. cbn [bind] in H.
  destruct u; [discriminate|].
  destruct (0 <? length (rd_trim cur))%nat eqn:El.
  - destruct (trim_error_line_total (rd_trim cur)) as [s Et]. rewrite Et in H. discriminate.
  - inversion H; subst rules0. exists cur. split.
    + apply Nat.ltb_ge in El. destruct (rd_trim cur) eqn:Ec; [|cbn in El; lia].
      destruct (trim_decomp cur) as [l [r [Hl [Hr E2]]]]. rewrite Ec in E2. cbn [app] in E2.
      rewrite E2, all_ws_app, Hl, Hr. reflexivity.
    + apply sep_concat in Es. cbn in Es. exact Es.
Qed.

Lemma exact_rest ps : exact_pieces false ps = true -> sp_rules (trimmed_pieces ps) = concat (bodies ps).
Proof.
  induction ps as [|p ps IH]; intro H; [reflexivity|].
  cbn [exact_pieces] in H. apply andb_true_iff in H as [Hb Hps].
  unfold sp_rules in *. cbn [trimmed_pieces bodies map concat]. fold (trimmed_pieces ps). fold (bodies ps). rewrite (IH Hps).
  unfold body_exact in Hb. destruct (snd p) as [|c m]; [discriminate|].
  apply andb_true_iff in Hb as [Hc Hm]. apply N.eqb_eq in Hc. subst c. apply str_eqb_eq in Hm.
  change (ch_space :: m) with ([ch_space] ++ m) at 1. rewrite trim_ws_app by reflexivity. rewrite Hm. reflexivity.
Qed.

Lemma exact_expected_rule rl t : exact_pieces true (pieces rl t) = true -> expected_rule rl t = t.
Proof.
  intro H. unfold expected_rule. fold (trimmed_pieces (pieces rl t)).
  pose proof (lay_concat (snd rl) (fst rl) t) as Hc. fold (pieces rl t) in Hc.
  destruct (pieces rl t) as [|p ps]; [cbn in Hc; subst t; reflexivity|].
  cbn [exact_pieces] in H. apply andb_true_iff in H as [Hb Hps].
  change (trimmed_pieces (p :: ps)) with (rd_trim (snd p) :: trimmed_pieces ps). rewrite join_sp_sp_rules.
  rewrite (exact_rest _ Hps). cbn [body_exact] in Hb. apply str_eqb_eq in Hb. rewrite Hb. exact Hc.
Qed.

Lemma exact_expected rls : forall texts, length rls = length texts ->
  exact_layout rls texts = true -> expected rls texts = texts.
Proof.
  induction rls as [|rl rls IH]; intros [|t texts] Hl H; try discriminate; [reflexivity|].
  cbn in H. apply andb_true_iff in H as [H1 H2]. cbn [expected]. rewrite exact_expected_rule by exact H1.
  rewrite IH; [reflexivity| cbn in Hl; lia | exact H2].
Qed.

Lemma rules_ok_length rls : forall texts, rules_ok rls texts = true -> length rls = length texts.
Proof.
  induction rls as [|rl rls IH]; intros [|t texts] H; try discriminate; [reflexivity|].
  cbn in H. apply andb_true_iff in H as [_ H]. cbn. f_equal. apply IH, H.
Qed.

Section LoadKb.
  Variable parse_rule : str -> res (presult rule).

  (* loading the file = parsing the separated rule texts one by one (lk_loop is that loop) *)
  Theorem load_kb_spec : forall L texts kb,
    legal L texts = true -> forallb wf_text texts = true ->
    load_kb_from_file parse_rule kb (render L texts) =
    lk_loop parse_rule (expected (lay_rules L) texts) kb.
  Proof.
    intros L texts kb HL Hwf. unfold load_kb_from_file.
    destruct (load_spec L texts HL Hwf) as [E _]. rewrite E. reflexivity.
  Qed.

  Lemma lk_loop_agree ts : forall ts' kb,
    Forall2 (fun t t' => parse_rule t = parse_rule t') ts ts' ->
    lk_loop parse_rule ts kb = lk_loop parse_rule ts' kb.
  Proof.
    induction ts as [|t ts IH]; intros ts' kb H; inversion H as [|? t' ? ts0 Ht Hts]; subst; [reflexivity|].
    cbn [lk_loop]. rewrite <- Ht. destruct (parse_rule t) as [[r|]| |]; cbn [bind]; try reflexivity.
    destruct (add_rules kb [r]); cbn [bind]; try reflexivity. apply IH, Hts.
  Qed.

  (* ... which is parsing the ORIGINAL texts one by one, if the parser gives the same rule for a
     text and for the text with its cut points respaced *)
  Theorem load_kb_each : forall L texts kb,
    legal L texts = true -> forallb wf_text texts = true ->
    Forall2 (fun t t' => parse_rule t = parse_rule t') texts (expected (lay_rules L) texts) ->
    load_kb_from_file parse_rule kb (render L texts) = lk_loop parse_rule texts kb.
  Proof.
    intros L texts kb HL Hwf Hp. rewrite load_kb_spec by assumption. symmetry. apply lk_loop_agree, Hp.
  Qed.

  (* no assumption on the parser when every line break stands in front of a single space *)
  Theorem load_kb_exact : forall L texts kb,
    legal L texts = true -> forallb wf_text texts = true ->
    exact_layout (lay_rules L) texts = true ->
    load_kb_from_file parse_rule kb (render L texts) = lk_loop parse_rule texts kb.
  Proof.
    intros L texts kb HL Hwf He. rewrite load_kb_spec by assumption.
    rewrite exact_expected; [reflexivity| |exact He].
    unfold legal in HL. apply andb_true_iff in HL as [HL _]. apply rules_ok_length, HL.
  Qed.
End LoadKb.


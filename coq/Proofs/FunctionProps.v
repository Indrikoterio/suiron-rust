(* C13: a built-in function term is evaluated whichever side of `=` it is on. *)
From Suiron Require Import Model.Term Model.Subst Model.Show Model.Lists Model.Arith Model.Unify
  Proofs.UnifyInv.
Open Scope N_scope.

Definition is_fun (t : term) : bool := match t with TFun _ _ => true | _ => false end.

Lemma fn_left f name args ss v t :
  eval_function f name args ss = Ok (Some v) ->
  term_eqb (TFun name args) t = false -> is_anon t = false ->
  unify (S f) (TFun name args) t ss = unify f v t ss.
Proof.
  intros Hv Hne Hanon. rewrite unify_S. unfold unify_body. rewrite Hne, Hanon, Hv. reflexivity.
Qed.

Lemma fn_right f name args ss v t :
  eval_function f name args ss = Ok (Some v) ->
  is_fun t = false -> is_anon t = false -> is_nil t = false ->
  (forall n, t <> TVar 0 n) ->
  unify (S (S f)) t (TFun name args) ss = unify f v t ss.
Proof.
  intros Hv Hf Hanon Hnil Hid.
  assert (term_eqb t (TFun name args) = false) as Hne by (destruct t; try reflexivity; discriminate).
  assert (term_eqb (TFun name args) t = false) as Hne' by (destruct t; try reflexivity; discriminate).
  rewrite unify_S. unfold unify_body at 1. rewrite Hne. cbn [is_anon].
  destruct t; try discriminate; try (apply fn_left; assumption).
  destruct (N.eqb_spec id 0) as [->|_]; [exfalso; eapply Hid; reflexivity|].
  apply fn_left; assumption.
Qed.

Lemma fn_unknown_left f name args ss t :
  eval_function f name args ss = Ok None ->
  term_eqb (TFun name args) t = false -> is_anon t = false ->
  unify (S f) (TFun name args) t ss = Ok None.
Proof.
  intros Hv Hne Hanon. rewrite unify_S. unfold unify_body. rewrite Hne, Hanon, Hv. reflexivity.
Qed.

Lemma unify_constants_sym f a b ss :
  is_constant a = true -> is_constant b = true ->
  unify (S f) a b ss = unify (S f) b a ss.
Proof.
  intros Ha Hb. rewrite unify_S. unfold unify_body.
  destruct a; try discriminate Ha; destruct b; try discriminate Hb; cbn [term_eqb is_anon]; try reflexivity.
  - rewrite (str_eqb_sym s s0). destruct (str_eqb s0 s); reflexivity.
  - rewrite (feqb_sym f1 f0). destruct (feqb f0 f1); reflexivity.
  - rewrite (Z.eqb_sym z z0). destruct (Z.eqb z0 z); reflexivity.
Qed.

Lemma unify_constant_var f c id n ss :
  is_constant c = true ->
  unify (S f) c (TVar id n) ss = unify f (TVar id n) c ss.
Proof. intro Hc. rewrite unify_S. unfold unify_body. destruct c; try discriminate; reflexivity. Qed.

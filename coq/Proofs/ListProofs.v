(* C15-C17, through the view `elems` of Spec/SpecLists.v: the list builders of s_linked_list.rs
   (make_linked_list, link_front, make_list_of_terms) build exactly the given elements; the
   traversal `walk` shared by count / append / include / exclude / join visits exactly the
   elements the specification names (`Elements`). *)
From Coq Require Import Lia.
From Suiron Require Import Model.Term Model.Subst Model.Lists Model.Unify Model.Builtins
  Spec.SpecCompare Spec.SpecLists Proofs.CompareProofs.
Open Scope N_scope.

Lemma elems_empty : elems empty_list = Some ([], None).
Proof. reflexivity. Qed.

Lemma is_empty_list_eq t : is_empty_list t = true -> t = empty_list.
Proof.
  destruct t as [| | | | | | |a n c tv|]; try discriminate. simpl.
  destruct a; try discriminate. destruct n; try discriminate.
  destruct c; try discriminate. destruct tv; try discriminate. reflexivity.
Qed.

Lemma elems_cons x nx c xs tl :
  is_nil x = false -> elems nx = Some (xs, tl) -> c = node_count nx + 1 ->
  elems (TList x nx c false) = Some (x :: xs, tl).
Proof. intros Hx He ->. simpl. rewrite Hx, He, N.eqb_refl. reflexivity. Qed.

(* The view as a relation, one constructor per shape of a well-formed chain: facts about
   `elems l = Some (xs, tl)` are proved by induction on it, not on the raw nodes. *)
Inductive Elems : term -> list term -> option term -> Prop :=
| Elems_nil : Elems empty_list [] None
| Elems_tail v : is_nil v = false -> Elems (TList v empty_list 1 true) [] (Some v)
| Elems_cons x nx xs tl : is_nil x = false -> Elems nx xs tl ->
    Elems (TList x nx (node_count nx + 1) false) (x :: xs) tl.

Lemma elems_Elems : forall l xs tl, elems l = Some (xs, tl) -> Elems l xs tl.
Proof.
  induction l as [| |a0|f0|z0|id0 nm0|ts0 _|x nx c tv _ IH|nm1 args1 _] using term_ind';
    intros xs tl H; simpl in H; try discriminate.
  destruct (is_nil x) eqn:Ex.
  - destruct (is_nil nx && (c =? 0) && negb tv) eqn:E; [|discriminate].
    apply andb_true_iff in E as [E Etv]. apply andb_true_iff in E as [En Ec].
    destruct x; try discriminate. destruct nx; try discriminate. destruct tv; try discriminate.
    apply N.eqb_eq in Ec as ->.
    inversion H. constructor.
  - destruct tv.
    + destruct (is_empty_list nx && (c =? 1)) eqn:E; [|discriminate].
      apply andb_true_iff in E as [E1 E2]. apply is_empty_list_eq in E1 as ->.
      apply N.eqb_eq in E2 as ->. inversion H; subst. now constructor.
    + destruct (elems nx) as [[ys tl']|]; [|discriminate].
      destruct (N.eqb_spec c (node_count nx + 1)) as [->|]; [|discriminate].
      inversion H; subst. constructor; auto.
Qed.

Lemma elems_count l xs tl : elems l = Some (xs, tl) ->
  node_count l = N.of_nat (length xs) + match tl with Some _ => 1 | None => 0 end.
Proof.
  intro H. apply elems_Elems in H. induction H as [| |x nx xs tl _ _ IH]; try reflexivity.
  cbn [node_count length]. rewrite IH, Nat2N.inj_succ. lia.
Qed.

Lemma elems_tail_not_nil l xs tl : elems l = Some (xs, Some tl) -> is_nil tl = false.
Proof.
  intro H. apply elems_Elems in H. remember (Some tl) as r eqn:E.
  induction H; try discriminate; [now inversion E; subst|auto].
Qed.

Lemma make_list_of_terms_spec xs : non_nil xs ->
  elems (make_list_of_terms xs) = Some (xs, None) /\
  node_count (make_list_of_terms xs) = N.of_nat (length xs).
Proof.
  intro H. assert (elems (make_list_of_terms xs) = Some (xs, None)) as E.
  { induction H; [reflexivity|]. cbn [make_list_of_terms fold_right]. apply elems_cons; auto. }
  split; [exact E|]. rewrite (elems_count _ _ _ E). apply N.add_0_r.
Qed.

Lemma mll_fold : forall br tail ys tl,
  non_nil br -> elems tail = Some (ys, tl) ->
  elems (fst (fst (fold_left mll_step br (tail, node_count tail + 1, false)))) = Some (rev br ++ ys, tl).
Proof.
  induction br as [|x br IH]; intros tail ys tl Hn He; [exact He|].
  inversion Hn as [|? ? Hx Hbr]; subst. cbn [fold_left mll_step rev]. rewrite <- app_assoc.
  apply (IH (TList x tail (node_count tail + 1) false)); [exact Hbr|]. apply elems_cons; auto.
Qed.

(* the node the elements in front of `last` are linked to: a trailing list is spliced in as
   the rest of the list, any other term gets a node of its own *)
Definition last_node (vbar : bool) (last : term) : term :=
  match last with
  | TList t _ _ _ => if is_nil t then empty_list else last
  | _ => TList last empty_list 1 vbar
  end.

Lemma last_node_list vbar l xs tl : elems l = Some (xs, tl) -> last_node vbar l = l.
Proof.
  intro He. apply elems_Elems in He.
  destruct He as [|v Hv|x nx ? ? Hx _]; cbn [last_node]; [|rewrite Hv|rewrite Hx]; reflexivity.
Qed.

Lemma last_node_plain vbar last : is_list last = false -> last_node vbar last = TList last empty_list 1 vbar.
Proof. destruct last; try discriminate; reflexivity. Qed.

Theorem mll_elems vbar xs last ys tl :
  xs <> [] -> non_nil xs -> is_nil last = false -> elems (last_node vbar last) = Some (ys, tl) ->
  elems (make_linked_list vbar (xs ++ [last])) = Some (xs ++ ys, tl).
Proof.
  intros Hne Hn Hl He.
  (* both sides are the fold of mll_step over rev xs, started at last_node *)
  pose proof (mll_fold (rev xs) _ _ _ (Forall_rev Hn) He) as E0. rewrite rev_involutive in E0.
  rewrite <- E0. clear E0.
  unfold make_linked_list. rewrite rev_app_distr. cbn [rev app].
  destruct (rev xs) as [|b br] eqn:E.
  - exfalso. apply Hne. rewrite <- (rev_involutive xs), E. reflexivity.
  - destruct last as [| | | | | | |t n c tf|]; try discriminate; try reflexivity.
    cbn [last_node]. destruct (is_nil t); reflexivity.
Qed.

Lemma mll_plain vbar xs last :
  xs <> [] -> non_nil xs -> is_list last = false -> is_nil last = false ->
  elems (make_linked_list vbar (xs ++ [last])) =
  if vbar then Some (xs, Some last) else Some (xs ++ [last], None).
Proof.
  intros Hne Hn Hl Hnil.
  assert (elems (last_node vbar last) = if vbar then Some ([], Some last) else Some ([last], None)) as He.
  { rewrite last_node_plain by exact Hl. simpl. rewrite Hnil. destruct vbar; reflexivity. }
  destruct vbar; rewrite (mll_elems _ xs last _ _ Hne Hn Hnil He); [now rewrite app_nil_r|reflexivity].
Qed.

Lemma mll_single vbar x : is_nil x = false ->
  elems (make_linked_list vbar [x]) = if vbar then Some ([], Some x) else Some ([x], None).
Proof. intro Hx. unfold make_linked_list. simpl. rewrite Hx. destruct vbar; reflexivity. Qed.

Definition stop_of (keep : bool) : bool := negb keep.

Lemma walk_nil f stop nx ss : walk f stop TNil nx ss = Ok [].
Proof. destruct f; reflexivity. Qed.

Lemma walk_cons f stop h t n c ss : is_nil h = false ->
  walk (S f) stop h (TList t n c false) ss = do r <- walk f stop t n ss; Ok (h :: r).
Proof. intro Hh. cbn [walk]. now rewrite Hh. Qed.

Lemma walk_last f stop h ss : is_nil h = false -> walk (S f) stop h empty_list ss = Ok [h].
Proof. intro Hh. unfold empty_list. now rewrite walk_cons, walk_nil. Qed.

(* What the traversal yields at the tail node is left open: `R`, within fuel `ftail`. *)
Definition at_tail ss stop (R : list term) (ftail : nat) (tl : option term) : Prop :=
  match tl with
  | None => R = []
  | Some v => forall h f, is_nil h = false -> (ftail <= f)%nat ->
      walk (S f) stop h (TList v empty_list 1 true) ss = Ok (h :: R)
  end.

(* from a non-empty head `h` over the nodes `nx` that follow it *)
Lemma walk_rest ss stop R ftail nx xs tl : Elems nx xs tl -> at_tail ss stop R ftail tl ->
  forall h f, is_nil h = false -> (ftail + length xs <= f)%nat ->
  walk (S f) stop h nx ss = Ok (h :: xs ++ R).
Proof.
  intros He HR. induction He as [|v Hv|y ny ys tl Hy _ IH]; intros h f Hh Hf.
  - cbn [at_tail] in HR. subst R. now apply walk_last.
  - apply HR; [exact Hh|]. simpl in Hf. lia.
  - destruct f as [|f]; [simpl in Hf; lia|]. rewrite walk_cons, (IH HR y f) by (simpl in Hf; auto; lia).
    reflexivity.
Qed.

(* over a whole list; a `proper` one does not start with a tail node *)
Lemma walk_list ss stop R ftail x nx c tv xs tl :
  elems (TList x nx c tv) = Some (xs, tl) -> proper xs tl -> at_tail ss stop R ftail tl ->
  forall f, (ftail + length xs <= f)%nat -> walk f stop x nx ss = Ok (xs ++ R).
Proof.
  intros He Hp HR f Hf. apply elems_Elems in He. inversion He; subst.
  - cbn [at_tail] in HR. subst R. apply walk_nil.
  - destruct Hp; congruence.
  - destruct f as [|f]; [simpl in Hf; lia|]. eapply walk_rest; eauto. simpl in Hf. lia.
Qed.

Lemma fuel_max2 (P Q : nat -> Prop) :
  (exists a, forall f, (a <= f)%nat -> P f) -> (exists b, forall f, (b <= f)%nat -> Q f) ->
  exists c, forall f, (c <= f)%nat -> P f /\ Q f.
Proof.
  intros [a Ha] [b Hb]. exists (Nat.max a b). intros f Hf. split; [apply Ha|apply Hb]; lia.
Qed.

Lemma get_list_ggt f v ss : get_list f v ss =
  do g <- get_ground_term f v ss;
  Ok (match g with Some gt => if is_list gt then Some gt else None | None => None end).
Proof. destruct v; try reflexivity; now rewrite ggt_nonvar. Qed.

(* The traversal yields exactly the elements the specification names. *)
Theorem walk_Elements ss keep l xs : Elements ss keep l xs ->
  forall x nx c tv, l = TList x nx c tv ->
  exists f0, forall f, (f0 <= f)%nat -> walk f (negb keep) x nx ss = Ok xs.
Proof.
  induction 1 as [l xs He|l xs He Hne|l xs tl l' ys He Hne Han Hc Hl Hel IH|l xs tl r He Hne Han Hc Hr];
    intros x nx c tv ->.
  - (* closed *)
    exists (0 + length xs)%nat. intros f Hf. rewrite <- (app_nil_r xs).
    eapply walk_list; eauto; [now right|reflexivity].
  - (* tail `$_` *)
    exists (1 + length xs)%nat. intros f Hf. eapply walk_list; eauto; [now left|].
    intros h f' Hh Hf'. cbn [walk]. rewrite Hh. cbn [is_anon negb andb].
    destruct f' as [|f'']; [lia|]. now rewrite walk_last.
  - (* tail bound to a list *)
    destruct l' as [| | | | | | |x' nx' c' tv'|]; try discriminate.
    destruct (fuel_max2 _ _ (IH x' nx' c' tv' eq_refl) (chain_ggt _ _ _ Hc)) as [f1 H1].
    exists (S f1 + length xs)%nat. intros f Hf. eapply walk_list; eauto; [now left|].
    intros h f' Hh Hf'. destruct (H1 f') as [E1 E2]; [lia|].
    cbn [walk]. rewrite Hh, Han. cbn [negb andb]. rewrite get_list_ggt, E2. cbn [bind is_list].
    now rewrite E1.
  - (* open tail: the last element when kept *)
    destruct (chain_ggt _ _ _ Hc) as [f2 Hf2].
    exists (S f2 + length xs)%nat. intros f Hf.
    replace (if keep then xs ++ [tl] else xs) with (xs ++ if keep then [tl] else [])
      by (destruct keep; [reflexivity|apply app_nil_r]).
    eapply walk_list; eauto; [now left|].
    intros h f' Hh Hf'. cbn [walk]. rewrite Hh, Han. cbn [negb andb].
    rewrite get_list_ggt, Hf2 by lia. cbn [bind].
    replace (match r with Some gt => if is_list gt then Some gt else None | None => None end)
      with (@None term) by (destruct r; [now rewrite Hr|reflexivity]).
    destruct keep; [cbn [negb]|reflexivity]. destruct f' as [|f'']; [lia|].
    rewrite walk_last; [reflexivity|]. eapply elems_tail_not_nil; eauto.
Qed.

Lemma resolve_walk {ss keep t l xs} :
  chain ss t (Some l) -> is_list l = true -> Elements ss keep l xs ->
  exists x nx c tv, l = TList x nx c tv /\ exists f0, forall f, (f0 <= f)%nat ->
    get_ground_term f t ss = Ok (Some l) /\ walk f (negb keep) x nx ss = Ok xs.
Proof.
  intros Hc Hl He. destruct l as [| | | | | | |x nx c tv|]; try discriminate.
  exists x, nx, c, tv. split; [reflexivity|].
  apply fuel_max2; [now apply chain_ggt|]. eapply walk_Elements; eauto.
Qed.

(* what an argument of join contributes: as for append (`Contrib`), and an unbound variable is
   itself a word *)
Inductive JoinArg (ss : subst) : term -> list term -> Prop :=
| JA_list t l xs : chain ss t (Some l) -> is_list l = true -> Elements ss true l xs -> JoinArg ss t xs
| JA_other t v : chain ss t (Some v) -> is_list v = false -> JoinArg ss t [v]
| JA_unbound t : chain ss t None -> JoinArg ss t [t].

Lemma get_terms_spec ss t c : JoinArg ss t c ->
  exists f0, forall f, (f0 <= f)%nat -> get_terms f t ss = Ok c.
Proof.
  unfold get_terms. intros [t0 l xs Hc Hl He|t0 v Hc Hl|t0 Hc].
  - destruct (resolve_walk Hc Hl He) as (x & nx & n & tv & -> & f0 & H). exists f0. intros f Hf.
    destruct (H f Hf) as [-> E]. exact E.
  - destruct (chain_ggt _ _ _ Hc) as [f0 H]. exists f0. intros f Hf. rewrite H by exact Hf.
    destruct v; try discriminate; reflexivity.
  - destruct (chain_ggt _ _ _ Hc) as [f0 H]. exists f0. intros f Hf. now rewrite H.
Qed.

Theorem count_terms_spec ss t l xs :
  chain ss t (Some l) -> is_list l = true -> Elements ss false l xs ->
  exists f0, forall f, (f0 <= f)%nat -> count_terms f t ss = Ok (Z.of_nat (length xs)).
Proof.
  intros Hc Hl He. destruct (resolve_walk Hc Hl He) as (x & nx & c & tv & -> & f0 & H).
  exists f0. intros f Hf. destruct (H f Hf) as [E1 E2]. unfold count_terms.
  rewrite ggt_or_self, E1. cbn [bind]. cbn [negb] in E2. now rewrite E2.
Qed.

Lemma chain_some_nonvar ss t v : chain ss t (Some v) -> is_var v = false.
Proof.
  intro H. remember (Some v) as r eqn:E. induction H; inversion E; subst; auto.
Qed.

(* an input that resolves contributes what get_terms yields for it *)
Lemma append_input f t v ss : get_ground_term f t ss = Ok (Some v) -> is_var v = false ->
  match t with
  | TVar _ _ => do g <- get_ground_term f t ss; Ok (match g with Some n => n | None => t end)
  | _ => Ok t
  end = Ok v /\
  match v with TList _ _ _ _ => get_terms f v ss | TVar _ _ => Ok [] | _ => Ok [v] end
  = get_terms f t ss.
Proof.
  intros E Hv. unfold get_terms at 2. rewrite E. split.
  - destruct t; try (rewrite ggt_nonvar in E by reflexivity; now inversion E). reflexivity.
  - destruct v; try discriminate; try reflexivity. unfold get_terms. now rewrite ggt_nonvar.
Qed.

Lemma Contrib_JoinArg ss t c : Contrib ss t c -> JoinArg ss t c /\ exists v, chain ss t (Some v).
Proof. intros [t' l xs Hc Hl He|t' v Hc Hl]; split; eauto using JoinArg. Qed.

Theorem append_collect_spec ss : forall inputs cs,
  Forall2 (Contrib ss) inputs cs ->
  exists f0, forall f, (f0 <= f)%nat -> append_collect f inputs ss = Ok (concat cs).
Proof.
  induction 1 as [|t c inputs cs Hc _ IH]; [exists O; reflexivity|].
  apply Contrib_JoinArg in Hc as [Hj [v Hv]].
  destruct (fuel_max2 _ _ IH (fuel_max2 _ _ (get_terms_spec _ _ _ Hj) (chain_ggt _ _ _ Hv))) as [f0 H].
  exists f0. intros f Hf. destruct (H f Hf) as (E1 & E2 & E3). cbn [append_collect concat].
  destruct (append_input f t v ss E3 (chain_some_nonvar _ _ _ Hv)) as [-> E4]. cbn [bind].
  now rewrite E4, E2, E1.
Qed.

Lemma removelast_app_one {A} (l : list A) x : removelast (l ++ [x]) = l.
Proof. rewrite removelast_app by discriminate. simpl. apply app_nil_r. Qed.

Theorem bip_append_spec ss inputs cs out :
  inputs <> [] -> Forall2 (Contrib ss) inputs cs ->
  exists f0, forall f, (f0 <= f)%nat ->
    bip_append f (Some (inputs ++ [out])) ss = unify f out (make_list_of_terms (concat cs)) ss.
Proof.
  intros Hne H. destruct (append_collect_spec _ _ _ H) as [f0 Hf0]. exists f0. intros f Hf.
  unfold bip_append.
  assert ((length (inputs ++ [out]) <? 2)%nat = false) as ->.
  { apply Nat.ltb_ge. rewrite app_length. simpl. destruct inputs; [congruence|]. simpl. lia. }
  rewrite removelast_app_one, last_last, Hf0 by lia. reflexivity.
Qed.

Definition passes (f : nat) (pat x : term) (ss : subst) : bool :=
  match unify f pat x ss with Ok (Some _) => true | _ => false end.

Lemma filter_terms_spec f pat incl ss : forall xs kept,
  filter_terms f pat incl xs ss = Ok kept ->
  kept = List.filter (fun x => Bool.eqb (passes f pat x ss) incl) xs.
Proof.
  induction xs as [|x xs IH]; intros kept H; cbn [filter_terms] in H.
  - now inversion H.
  - apply bind_Ok in H as (u & Eu & H). apply bind_Ok in H as (rest & Er & H). inversion H; subst.
    cbn [List.filter]. unfold passes at 1. rewrite Eu, (IH rest Er). destruct u; reflexivity.
Qed.

Theorem filter_spec ss pat t l xs incl :
  chain ss t (Some l) -> is_list l = true -> Elements ss true l xs ->
  exists f0, forall f, (f0 <= f)%nat ->
    filter f pat t ss incl =
    do kept <- filter_terms f pat incl xs ss; Ok (Some (make_list_of_terms kept)).
Proof.
  intros Hc Hl He. destruct (resolve_walk Hc Hl He) as (x & nx & c & tv & -> & f0 & H).
  exists f0. intros f Hf. destruct (H f Hf) as [E1 E2]. unfold filter. rewrite E1. cbn [bind]. cbn [negb] in E2. now rewrite E2.
Qed.

Lemma is_punctuation_punct s : is_punctuation s = is_punct s.
Proof. reflexivity. Qed.

Lemma join_words_false ws : join_words false ws = concat (spaced ws).
Proof.
  induction ws as [|w r IH]; [reflexivity|]. cbn [join_words spaced concat].
  rewrite is_punctuation_punct, IH. destruct (is_punct w); reflexivity.
Qed.

Theorem join_words_spec ws : join_words true ws = join_spec ws.
Proof.
  destruct ws as [|w r]; [reflexivity|]. cbn [join_words join_spec].
  rewrite join_words_false. destruct (is_punctuation w); reflexivity.
Qed.

Lemma get_all_terms_spec ss : forall args cs, Forall2 (JoinArg ss) args cs ->
  exists f0, forall f, (f0 <= f)%nat -> get_all_terms f args ss = Ok (concat cs).
Proof.
  induction 1 as [|t c args cs Hc _ IH]; [exists O; reflexivity|].
  destruct (fuel_max2 _ _ (get_terms_spec _ _ _ Hc) IH) as [f0 H]. exists f0. intros f Hf.
  destruct (H f Hf) as [E1 E2]. cbn [get_all_terms concat]. now rewrite E1, E2.
Qed.

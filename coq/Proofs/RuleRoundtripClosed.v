(* C19 closed: goals and rules built from the leaves of Proofs/GoalLeafParse.v satisfy the
   hypotheses of Proofs/GoalRoundtrip.v for the REAL leaf parsers parse_subgoal and
   parse_complex.  Hence, with no assumption about a leaf parser: Display gives the canonical
   text, and generate_goal / parse_rule give the goal / the rule back. *)
From Coq Require Import Lia String.
From Suiron Require Import Model.Tokenizer Model.ParseRule Proofs.TokenizerStream Proofs.TokenizerProofs
  Proofs.GoalRoundtrip.
From Suiron Require Import Model.ParseTerm Model.ParseGoal Model.Show Model.ShowGoal.
From Suiron Require Import Proofs.ParseTermProofs Proofs.ParseRoundtrip.
From Suiron Require Import Proofs.TermRoundtrip Proofs.TermRoundtripText Proofs.TermRoundtripComplex Proofs.TermRoundtripMain Proofs.GoalLeafText Proofs.GoalLeafParse.
Open Scope N_scope.

Inductive closed_goal : goal -> Prop :=
| cg_leaf l : closed_leaf l -> closed_goal l
| cg_and gs : (2 <= length gs)%nat -> (forall g, In g gs -> closed_goal g) -> closed_goal (GOp OAnd gs)
| cg_or gs : (2 <= length gs)%nat -> (forall g, In g gs -> closed_goal g) -> closed_goal (GOp OOr gs).

Inductive closed_head : term -> Prop :=
| ch_intro f ts : goal_functor f = true -> ts <> [] -> (forall t, In t ts -> canonical t) ->
    (length (show_term (TComplex (TAtom f :: ts))) <= 1000)%nat ->
    closed_head (TComplex (TAtom f :: ts))
| ch_intro0 f : goal_functor0 f = true -> (length (show_term (TComplex [TAtom f])) <= 1000)%nat ->
    closed_head (TComplex [TAtom f]).

Definition closed_rule (r : rule) : Prop :=
  closed_head (r_head r) /\ (r_body r = GNil \/ closed_goal (r_body r)).

Definition fl_go (sep : str) : bool -> list str -> str :=
  fix go (first : bool) (l : list str) : str :=
    match l with
    | [] => []
    | op :: l' => (if first then op else sep ++ op) ++ go false l'
    end.

Lemma fl_go_cons sep first op l :
  fl_go sep first (op :: l) = (if first then op else sep ++ op) ++ fl_go sep false l.
Proof. reflexivity. Qed.

Lemma format_list_go ops sep : format_list ops sep = fl_go sep true ops.
Proof. reflexivity. Qed.

Lemma fl_go_length sep : forall l first op, In op l -> (length op <= length (fl_go sep first l))%nat.
Proof.
  induction l as [|x l IH]; intros first op Hin; [contradiction|].
  rewrite fl_go_cons, app_length. destruct Hin as [->|Hin].
  - destruct first; [lia|rewrite app_length; lia].
  - specialize (IH false op Hin). lia.
Qed.

Lemma fl_go_forall (P : N -> Prop) sep : Forall P sep -> forall l first,
  (forall op, In op l -> Forall P op) -> Forall P (fl_go sep first l).
Proof.
  intros Hsep. induction l as [|x l IH]; intros first H; [constructor|].
  rewrite fl_go_cons. apply Forall_app. split.
  - destruct first; [apply H; now left|]. apply Forall_app. split; [exact Hsep|apply H; now left].
  - apply IH. intros op Hop. apply H. now right.
Qed.

Lemma operand_text_length ga x s : (length s <= length (operand_text ga x s))%nat.
Proof.
  unfold operand_text. destruct (needs_group ga x); [|lia].
  rewrite !app_length. cbn [length]. lia.
Qed.

Lemma operand_text_nocolon ga x s : nocolon s -> nocolon (operand_text ga x s).
Proof.
  intros H. unfold operand_text. destruct (needs_group ga x); [|exact H].
  unfold nocolon. apply Forall_app. split; [repeat constructor|].
  apply Forall_app. split; [exact H|repeat constructor].
Qed.

Lemma text_leaf l : is_leaf_goal l = true -> text l = leaf_text l.
Proof. destruct l as [[] gs| | |]; try reflexivity; discriminate. Qed.

Lemma text_and gs :
  text (GOp OAnd gs) = fl_go sep_comma true (map (fun x => operand_text true x (text x)) gs).
Proof. reflexivity. Qed.

Lemma text_or gs :
  text (GOp OOr gs) = fl_go sep_semicolon true (map (fun x => operand_text false x (text x)) gs).
Proof. reflexivity. Qed.

(* And / Or of operands that are canonical for every fuel from the length of their text on *)
Lemma operands_canonical ga gs :
  (2 <= length gs)%nat ->
  (forall g, In g gs -> nocolon (text g) /\
     forall F, (length (text g) + 2 <= F)%nat -> canonical_goal (parse_subgoal F) g) ->
  nocolon (text (GOp (and_or ga) gs)) /\
  forall F, (length (text (GOp (and_or ga) gs)) + 2 <= F)%nat ->
    canonical_goal (parse_subgoal F) (GOp (and_or ga) gs).
Proof.
  intros Hlen IH. rewrite text_op, format_list_go. split.
  - apply fl_go_forall; [destruct ga; repeat constructor|]. intros op Hop.
    apply in_map_iff in Hop as (x & <- & Hx). apply operand_text_nocolon. now apply IH.
  - intros F HF.
    assert (Hf : Forall (canonical_goal (parse_subgoal F)) gs).
    { apply Forall_forall. intros g Hg. apply (IH g Hg).
      eapply Nat.le_trans; [|exact HF]. apply Nat.add_le_mono_r.
      eapply Nat.le_trans; [apply (operand_text_length ga g)|].
      apply fl_go_length. apply in_map_iff. exists g. split; [reflexivity|exact Hg]. }
    destruct ga; [now apply can_and|now apply can_or].
Qed.

Lemma closed_goal_facts g : closed_goal g ->
  nocolon (text g) /\
  forall F, (length (text g) + 2 <= F)%nat -> canonical_goal (parse_subgoal F) g.
Proof.
  induction 1 as [l Hl|gs Hlen Hgs IH|gs Hlen Hgs IH].
  - rewrite (text_leaf l (closed_leaf_is_leaf l Hl)). split.
    + destruct (closed_leaf_facts l Hl) as (t & [Hs Lt _ _]). unfold leaf_text. rewrite Hs.
      apply (lt_nocolon t Lt).
    + intros F HF. apply can_leaf. now apply closed_leaf_ok.
  - now apply (operands_canonical true).
  - now apply (operands_canonical false).
Qed.

Lemma nocolon_neckfree s : nocolon s -> neckfree s = true.
Proof.
  induction s as [|c s IH]; intros H; [reflexivity|].
  inversion H as [|x l Hc Hs]; subst. destruct s as [|d s']; [reflexivity|].
  cbn [neckfree]. rewrite Hc. cbn [andb]. now apply IH.
Qed.

Theorem roundtrip_goal_closed : forall g F fuel,
  closed_goal g -> (length (text g) + 2 <= F)%nat -> (2 * length (text g) + 3 <= fuel)%nat ->
  show_goal g = Ok (text g) /\ generate_goal (parse_subgoal F) fuel (text g) = Ok (POk g).
Proof.
  intros g F fuel Hg HF Hfuel. apply roundtrip_goal; [|exact Hfuel].
  now apply (closed_goal_facts g Hg).
Qed.

(* The bound 1000 of validate_complex is a unary numeral: a hypothesis that mentions it is used
   once and cleared, so that it is not carried into the later steps. *)
Lemma parse_complex_call_canonical F f ts :
  simple_atom f = true -> ts <> [] -> (forall t, In t ts -> canonical t) ->
  (length (call_text f (map show_term ts)) <= 1000)%nat ->
  (length (call_text f (map show_term ts)) + 2 <= F)%nat ->
  parse_complex F (call_text f (map show_term ts)) = Ok (POk (TComplex (TAtom f :: ts))).
Proof.
  intros Hf Hne Hc Hlen HF.
  assert (Hg : Forall good (map show_term ts)).
  { apply Forall_forall. intros p Hp. apply gtext_good. now apply (args_gtext ts Hc). }
  assert (Hbal : parens_balanced (join_strs sep_comma (map show_term ts)) = true).
  { unfold parens_balanced. apply N.eqb_eq. apply (i_bal _ (inner_join _ Hg)). }
  unfold parse_complex.
  rewrite (parse_complex_body_call _ f _ (simple_atom_functor_ok f Hf) Hbal Hlen). clear Hlen.
  rewrite call_text_length in HF.
  assert (Hmne : map show_term ts <> []) by (destruct ts; [now elim Hne|discriminate]).
  unfold parse_functor_terms.
  destruct (join_ends _ Hmne Hg) as (Hbne & _ & _).
  rewrite (match_nonempty (join_strs sep_comma (map show_term ts))) by exact Hbne.
  destruct F as [|fuel]; [lia|].
  rewrite (parse_arguments_pieces fuel (map show_term ts) ts Hmne Hg).
  - cbn [pbind]. now rewrite (word_trimmed f (simple_atom_word f Hf)).
  - apply (canonical_args_parse (S fuel) ts (length (join_strs sep_comma (map show_term ts)))); [exact Hc| |lia].
    intros t Hin. apply join_length_ge. now apply in_map.
Qed.

Lemma parse_complex_call_empty F f :
  simple_atom f = true -> (length (call_text f []) <= 1000)%nat ->
  parse_complex F (call_text f []) = Ok (POk (TComplex [TAtom f])).
Proof.
  intros Hf Hlen. unfold parse_complex.
  rewrite (parse_complex_body_call _ f [] (simple_atom_functor_ok f Hf) eq_refl Hlen). clear Hlen.
  unfold parse_functor_terms. now rewrite (word_trimmed f (simple_atom_word f Hf)).
Qed.

Lemma call_head_canonical F f ts :
  simple_atom f = true -> (forall t, In t ts -> canonical t) ->
  (length (call_text f (map show_term ts)) <= 1000)%nat ->
  (length (call_text f (map show_term ts)) + 2 <= F)%nat ->
  parse_subgoal F (call_text f (map show_term ts)) = Ok (POk (GCall (TComplex (TAtom f :: ts)))) ->
  canonical_head (parse_subgoal F) (parse_complex F) (TComplex (TAtom f :: ts)).
Proof.
  intros Hs Hc Hlen HF Hp.
  assert (Hpc : parse_complex F (call_text f (map show_term ts)) = Ok (POk (TComplex (TAtom f :: ts)))).
  { destruct ts as [|t0 ts']; [now apply parse_complex_call_empty|].
    apply parse_complex_call_canonical; (assumption || discriminate). }
  clear Hlen. destruct (call_text_ltext f ts Hs Hc) as [Lt _].
  constructor; rewrite show_complex_text.
  - now apply ltext_tight.
  - apply nocolon_neckfree. apply (lt_nocolon _ Lt).
  - exact Hpc.
  - now rewrite (parse_subgoal_trim_eq F _ (call_text f (map show_term ts)))
      by (apply trim_app_white; reflexivity).
Qed.

Lemma closed_head_canonical h F : closed_head h -> (length (show_term h) + 2 <= F)%nat ->
  canonical_head (parse_subgoal F) (parse_complex F) h.
Proof.
  intros [f ts Hf Hne Hc Hlen|f Hf Hlen] HF; rewrite show_complex_text in Hlen, HF.
  - pose proof (goal_functor_facts f Hf) as Hff.
    apply call_head_canonical; [apply Hff|exact Hc|exact Hlen|exact HF|]. clear Hlen.
    destruct Hff as (Hs & Ht & Hn).
    rewrite parse_subgoal_call_canonical by assumption. now rewrite make_goal_call.
  - pose proof (goal_functor0_facts f Hf) as Hff.
    apply (call_head_canonical F f []); [apply Hff|intros t []|exact Hlen|exact HF|]. clear Hlen.
    destruct Hff as (Hs & Ht & Hn & Hmk).
    destruct F as [|fuel]; [cbn in HF; lia|].
    cbn [map]. rewrite parse_subgoal_call_empty by assumption. now rewrite Hmk.
Qed.

Lemma rule_text_lengths r :
  (length (show_term (r_head r)) <= length (rule_text r))%nat /\
  (goal_eqb (r_body r) GNil = false -> (length (text (r_body r)) <= length (rule_text r))%nat).
Proof.
  unfold rule_text. destruct (goal_eqb (r_body r) GNil).
  - split; [rewrite app_length; lia|discriminate].
  - split; [rewrite app_length; lia|]. intros _. rewrite !app_length. lia.
Qed.

Lemma closed_rule_canonical r F : closed_rule r -> (length (rule_text r) + 2 <= F)%nat ->
  canonical_rule (parse_subgoal F) (parse_complex F) r.
Proof.
  intros [Hh Hb] HF. destruct (rule_text_lengths r) as [L1 L2]. split.
  - apply closed_head_canonical; [exact Hh|lia].
  - destruct Hb as [Hb|Hb]; [now left|]. right.
    destruct (closed_goal_facts _ Hb) as [Hn Hcan].
    assert (Hcg : canonical_goal (parse_subgoal (length (text (r_body r)) + 2)) (r_body r))
      by (apply Hcan; lia).
    pose proof (canonical_not_nil _ _ Hcg) as Hnil. specialize (L2 Hnil).
    split; [apply Hcan; lia|now apply nocolon_neckfree].
Qed.

Theorem roundtrip_rule_closed : forall r F fuel,
  closed_rule r -> (length (rule_text r) + 2 <= F)%nat -> (2 * length (rule_text r) + 3 <= fuel)%nat ->
  show_rule r = Ok (rule_text r) /\
  parse_rule (parse_subgoal F) (parse_complex F) fuel (rule_text r) = Ok (POk r).
Proof.
  intros r F fuel Hr HF Hfuel. apply roundtrip_rule; [|exact Hfuel]. now apply closed_rule_canonical.
Qed.

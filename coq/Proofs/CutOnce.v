(* The textbook law of cut for the reference search (Spec/SpecCut.v):

       g1, !, rest      behaves as      once(g1), rest      and commits the call.

   The three theorems - first_answer (A), cut_is_once (B), cut_commits_the_call (C) - are said in
   words at the head of Properties/C02.v, where they are C02_first_answer, C02_cut_is_once and
   C02_cut_commits_the_call_reference.

   All three rest on one theorem, `natural`: csolve and cclauses, for ARBITRARY goals (the bodies
   of called clauses contain cuts), keep every relation between the results of two searches that
   mark, bump, seq and after_body keep.  (A) uses it twice: with the relation between the real
   search and its first-answer version (`fa_rel`), and with "the signal is one of C" (`sig_rel`). *)
From Coq Require Import Lia.
From Suiron Require Import Model.Term Model.Subst Model.Show Model.Lists Model.Arith Model.Unify
  Model.Compare Model.Builtins Model.Rename Model.Solve Spec.SpecCut
  Proofs.RenameProofs Proofs.SolveDead Proofs.RefinePlain Proofs.RefineCut.
Open Scope N_scope.

Fixpoint cutfree (g : goal) : bool :=
  match g with
  | GBip fn _ => negb (str_eqb fn n_cut)
  | GOp _ gs => (fix all (l : list goal) := match l with [] => true | x :: r => cutfree x && all r end) gs
  | _ => true
  end.

Lemma cutfree_op k gs : cutfree (GOp k gs) = forallb cutfree gs.
Proof. simpl. induction gs as [|x r IH]; [reflexivity|]. simpl. now rewrite IH. Qed.

Lemma cutfree_cons k k' g rest :
  cutfree (GOp k (g :: rest)) = true -> cutfree g = true /\ cutfree (GOp k' rest) = true.
Proof. rewrite !cutfree_op. simpl. intro H. now apply andb_true_iff in H. Qed.

Lemma cutfree_bip fn ts : cutfree (GBip fn ts) = true -> str_eqb fn n_cut = false.
Proof. simpl. intro H. now apply negb_true_iff in H. Qed.

(* renaming apart does not touch what `cutfree` looks at, nor the shape `g1, !, rest` *)
Lemma cutfree_erase : forall g, cutfree (erase_goal g) = cutfree g.
Proof.
  induction g as [k gs Hgs|f ts|t|] using goal_ind'; try reflexivity.
  - cbn [erase_goal]. rewrite !cutfree_op. induction Hgs as [|x l Hx _ IH]; simpl; [reflexivity|]. now rewrite Hx, IH.
  - destruct ts; reflexivity.
Qed.

Lemma fetched_clause_shape kb key idx c rl ctr rules r0 g1 rest :
  get_rule kb key idx c = Ok (rl, ctr) ->
  kb_get kb key = Some rules -> nth_error rules (N.to_nat idx) = Some r0 ->
  r_body r0 = GOp OAnd (g1 :: GBip n_cut None :: rest) -> cutfree g1 = true ->
  exists g1' rest',
    r_body rl = GOp OAnd (g1' :: GBip n_cut None :: rest') /\ cutfree g1' = true /\
    erase_goal g1' = erase_goal g1 /\ map erase_goal rest' = map erase_goal rest.
Proof.
  intros Hg Hkb Hn Hb Hcf.
  destruct (get_rule_spec _ _ _ _ _ _ Hg) as (r1 & rules1 & Hkb1 & Hn1 & He & _).
  rewrite Hkb in Hkb1. inversion Hkb1; subst rules1. rewrite Hn in Hn1. inversion Hn1; subst r1.
  unfold erase_rule in He. injection He as _ H2. rewrite Hb in H2. cbn [erase_goal map] in H2.
  destruct (r_body rl) as [k gs|f ts|t|]; cbn [erase_goal] in H2; try discriminate.
  2:{ destruct ts; discriminate. }
  injection H2 as Hk Hgs. destruct gs as [|g1' [|c' rest']]; cbn [map] in Hgs; try discriminate.
  injection Hgs as E1 E2 E3.
  assert (c' = GBip n_cut None) as ->.
  { destruct c' as [k' gs'|f' [ts'|]|t'|]; cbn [erase_goal] in E2; try discriminate. exact E2. }
  subst k. exists g1', rest'. split; [reflexivity|]. split; [|split; [exact E1|exact E3]].
  rewrite <- (cutfree_erase g1'), E1, cutfree_erase. exact Hcf.
Qed.

Definition bumpr (x : cres) : cres := let '(a, w, sg) := x in (a, w, bump sg).

Lemma mark_eq c a w sg : mark c (a, w, sg) = (a, w, if c then join0 sg else sg).
Proof. destruct c; reflexivity. Qed.

(* The search is natural in its continuation.  R i r h relates the results r, h of two searches;
   the index i says what their continuations may do, `inner i` is the index seen from inside a
   call, `adm cf i` says that i is admitted (for cut-free goals only when cf = true).  If R is kept
   by mark, bump, seq and after_body, then two searches of the same goal with related
   continuations give related results.  A cut-free goal (cf = true) calls its continuation with
   the flag false only, so the continuations need be related there only, and `mark true` need
   not keep R i. *)
Section Natural.
  Variable kb : kbase.
  Variable bf : nat.
  Variable Ix : Type.
  Variable R : Ix -> cres -> cres -> Prop.
  Variable inner : Ix -> Ix.
  Variable adm : bool -> Ix -> Prop.

  Definition run_rel (i : Ix) (x y : res cres) : Prop := forall r, x = Ok r -> exists h, y = Ok h /\ R i r h.
  Definition kont_rel (cf : bool) (i : Ix) (K H : ckont) : Prop :=
    forall s w c, (cf = true -> c = false) -> run_rel i (K s w c) (H s w c).
  Definition cutfree_if (cf : bool) (g : goal) : Prop := cf = true -> cutfree g = true.

  Hypothesis adm_inner : forall cf i, adm cf i -> adm false (inner i).
  Hypothesis R_nil : forall cf i w, adm cf i -> R i ([], w, Go) ([], w, Go).
  Hypothesis R_mark : forall i r h, adm false i -> R i r h -> R i (mark true r) (mark true h).
  Hypothesis R_bump : forall cf i r h, adm cf i -> R i r h -> R (inner i) (bumpr r) (bumpr h).
  Hypothesis R_seq : forall cf i r h bK bH, adm cf i -> R i r h -> (forall w, run_rel i (bK w) (bH w)) ->
    run_rel i (seq (Ok r) bK) (seq (Ok h) bH).
  Hypothesis R_after : forall cf i r h bK bH, adm cf i -> R (inner i) r h -> (forall w, run_rel i (bK w) (bH w)) ->
    run_rel i (after_body r bK) (after_body h bH).

  Lemma run_rel_ok i r h : R i r h -> run_rel i (Ok r) (Ok h).
  Proof. intros Hr r0 E. injection E as <-. now exists h. Qed.

  Lemma run_rel_bind i j x y (fK fH : cres -> res cres) :
    run_rel i x y -> (forall r h, R i r h -> run_rel j (fK r) (fH h)) -> run_rel j (bind x fK) (bind y fH).
  Proof.
    intros Hxy Hf r E. destruct x as [v| |]; try discriminate E.
    destruct (Hxy v eq_refl) as (h & -> & Hr). exact (Hf v h Hr r E).
  Qed.

  Lemma run_rel_mark cf i c x y : adm cf i -> (cf = true -> c = false) -> run_rel i x y ->
    run_rel i (do v <- x; Ok (mark c v)) (do v <- y; Ok (mark c v)).
  Proof.
    intros Hi Hc Hxy. apply (run_rel_bind i i _ _ _ _ Hxy). intros r h Hr. apply run_rel_ok.
    destruct c; [|exact Hr]. destruct cf; [discriminate (Hc eq_refl)|]. now apply R_mark.
  Qed.

  Lemma kont_rel_kwrap cf i c1 K H : adm cf i -> (cf = true -> c1 = false) -> kont_rel cf i K H ->
    kont_rel cf i (kwrap c1 K) (kwrap c1 H).
  Proof.
    intros Hi Hc1 HK s w c Hc. unfold kwrap.
    apply (run_rel_mark cf); [exact Hi| |apply HK]; intro E; rewrite (Hc1 E), (Hc E); reflexivity.
  Qed.

  Lemma kont_rel_kbump cf i K H : adm cf i -> kont_rel true i K H -> kont_rel false (inner i) (kbump K) (kbump H).
  Proof.
    intros Hi HK s w c _. unfold kbump. apply (run_rel_bind i _ _ _ _ _ (HK s w false (fun _ => eq_refl))).
    intros [[a w1] sg] [[a' w1'] sg'] Hr. apply run_rel_ok. exact (R_bump _ _ _ _ Hi Hr).
  Qed.

  Lemma cutfree_if_cons cf k k' g rest : cutfree_if cf (GOp k (g :: rest)) -> cutfree_if cf g /\ cutfree_if cf (GOp k' rest).
  Proof. intro H. split; intro E; apply (cutfree_cons k k' g rest (H E)). Qed.

  Theorem natural : forall f,
    (forall cf i g s w K H, adm cf i -> cutfree_if cf g -> kont_rel cf i K H ->
       run_rel i (csolve kb bf f g s w K) (csolve kb bf f g s w H)) /\
    (forall cf i t s key idx n w K H, adm cf i -> kont_rel true i K H ->
       run_rel i (cclauses kb bf f t s key idx n w K) (cclauses kb bf f t s key idx n w H)).
  Proof.
    induction f as [|f [IHs IHc]].
    { split; intros; intros r E; discriminate E. }
    split.
    - intros cf i g s w K H Hi Hg HK. rewrite !csolve_S. unfold csolve_body.
      destruct g as [op gs|fn ts|t|]; try (intros r E; discriminate E).
      + destruct op.
        * destruct gs as [|g1 [|g2 rest]]; [intros r E; discriminate E| |];
            destruct (cutfree_if_cons cf _ OAnd _ _ Hg) as [Hg1 Hg2].
          -- now apply (IHs cf).
          -- apply (IHs cf); [exact Hi|exact Hg1|]. intros s1 w1 c1 Hc1.
             apply (run_rel_mark cf); [exact Hi|exact Hc1|].
             apply (IHs cf); [exact Hi|exact Hg2|]. now apply kont_rel_kwrap.
        * destruct gs as [|g1 [|g2 rest]]; [intros r E; discriminate E| |];
            destruct (cutfree_if_cons cf _ OOr _ _ Hg) as [Hg1 Hg2].
          -- now apply (IHs cf).
          -- apply (run_rel_bind i i); [now apply (IHs cf)|]. intros r h Hr.
             apply (R_seq cf); [exact Hi|exact Hr|]. intro w1. now apply (IHs cf).
        * destruct gs as [|g1 rest]; [intros r E; discriminate E|].
          destruct (has_cut g1); [intros r E; discriminate E|].
          destruct (csolve kb bf f g1 s w halt1) as [[[a w1] sg1]| |]; cbn [bind]; try (intros r E; discriminate E).
          destruct a; [apply run_rel_ok, (R_nil cf), Hi|now apply HK].
        * destruct gs as [|g1 rest]; [intros r E; discriminate E|].
          destruct (has_cut g1); [intros r E; discriminate E|].
          destruct (csolve kb bf f g1 s w halt1) as [[[a w1] sg1]| |]; cbn [bind]; try (intros r E; discriminate E).
          destruct a; [now apply HK|apply run_rel_ok, (R_nil cf), Hi].
      + destruct (run_bip bf fn ts s) as [rb| |] eqn:Eb; cbn [bind]; try (intros r E; discriminate E).
        destruct (br_sol rb) as [s'|]; [|apply run_rel_ok, (R_nil cf), Hi].
        assert (cf = true -> br_cut rb = false) as Hc.
        { intro E. exact (run_bip_no_cut _ _ _ _ _ (cutfree_bip _ _ (Hg E)) Eb). }
        apply (run_rel_mark cf); [exact Hi|exact Hc|]. now apply HK.
      + destruct (term_key t) as [key| |]; cbn [bind]; try (intros r E; discriminate E).
        destruct (count_rules kb key w) as [n w0]. apply (IHc cf); [exact Hi|].
        intros s1 w1 c Hc. apply HK. intros _. now apply Hc.
    - intros cf i t s key idx n w K H Hi HK. rewrite !cclauses_S. unfold cclauses_body.
      destruct (n <=? idx); [apply run_rel_ok, (R_nil cf), Hi|].
      destruct (get_rule kb key idx (next_id w)) as [[rl ctr]| |]; cbn [bind]; try (intros r E; discriminate E).
      destruct (unify bf (r_head rl) t s) as [[s'|]| |]; cbn [bind]; try (intros r E; discriminate E).
      2:{ now apply (IHc cf). }
      assert (forall w2, run_rel i (cclauses kb bf f t s key (idx + 1) n w2 K) (cclauses kb bf f t s key (idx + 1) n w2 H))
        as Hrest by (intro w2; now apply (IHc cf)).
      destruct (is_gnil (r_body rl)).
      + apply (run_rel_bind i i); [now apply HK|]. intros r h Hr. now apply (R_seq cf).
      + apply (run_rel_bind (inner i) i).
        * apply (IHs false); [exact (adm_inner _ _ Hi)|discriminate|exact (kont_rel_kbump cf _ _ _ Hi HK)].
        * intros r h Hr. now apply (R_after cf).
  Qed.
End Natural.

(* First instance: the real search and its first-answer version.
   k0 is what is finally called on the first answer (no flag); it always stops the search *)
Definition stopping (k : ckont) : Prop :=
  forall s w c a w' sg, k s w c = Ok (a, w', sg) -> sg <> Go.

Definition k0t := subst -> world -> res cres.
Definition stopping0 (k0 : k0t) : Prop :=
  forall s w a w' sg, k0 s w = Ok (a, w', sg) -> sg <> Go.
Definition bump_k0 (k0 : k0t) : k0t := fun s w => do z <- k0 s w; Ok (bumpr z).

(* r: the result of the real search; h: the result of the first-answer search *)
Inductive fa_rel (k0 : k0t) : cres -> cres -> Prop :=
| fa_none w1 sg1 : sg1 <> Halt -> fa_rel k0 ([], w1, sg1) ([], w1, sg1)
| fa_one s1 w1 r : k0 s1 w1 = Ok r -> fa_rel k0 r ([s1], w1, Halt).

Lemma stopping0_bump_k0 k0 : stopping0 k0 -> stopping0 (bump_k0 k0).
Proof.
  intros Hk s w a w' sg H. unfold bump_k0 in H.
  destruct (k0 s w) as [[[a1 w1] sg1]| |] eqn:E; cbn [bind bumpr] in H; try discriminate.
  injection H as <- <- <-. specialize (Hk _ _ _ _ _ E). destruct sg1; cbn [bump]; congruence.
Qed.

Lemma join0_nongo sg : sg <> Go -> join0 sg = sg.
Proof. destruct sg; [congruence|reflexivity|reflexivity]. Qed.

Lemma fa_mark k0 r h : stopping0 k0 -> fa_rel k0 r h -> fa_rel k0 (mark true r) (mark true h).
Proof.
  intros Hk F. destruct F as [w1 sg1 Hn|s1 w1 [[a w'] sg] E]; cbn [mark].
  - constructor. destruct sg1; cbn [join0]; congruence.
  - rewrite (join0_nongo sg) by exact (Hk _ _ _ _ _ E). now constructor.
Qed.

Lemma fa_bump k0 r h : fa_rel k0 r h -> fa_rel (bump_k0 k0) (bumpr r) (bumpr h).
Proof.
  intros [w1 sg1 Hn|s1 w1 r0 E]; cbn [bumpr bump].
  - constructor. destruct sg1; cbn [bump]; congruence.
  - constructor. unfold bump_k0. now rewrite E.
Qed.

(* the signal of a clause body in which a cut ran, seen by the caller of the call *)
Definition leave_call (sg : sig) : sig :=
  match sg with Cut O => Go | Cut (S m) => Cut m | _ => sg end.

Lemma after_body_nongo a w sg rest : sg <> Go -> after_body (a, w, sg) rest = Ok (a, w, leave_call sg).
Proof. intro H. unfold after_body. destruct sg as [|[|m]|]; [congruence|reflexivity|reflexivity|reflexivity]. Qed.

Lemma fa_seq k0 r h (bK bH : world -> res cres) :
  stopping0 k0 -> fa_rel k0 r h -> (forall w, run_rel _ fa_rel k0 (bK w) (bH w)) ->
  run_rel _ fa_rel k0 (seq (Ok r) bK) (seq (Ok h) bH).
Proof.
  intros Hk F Hb. destruct F as [w1 sg1 Hn|s1 w1 [[a w'] sg] E].
  - destruct sg1 as [|m|]; [rewrite !seq_nil_l; apply Hb| |congruence].
    rewrite !seq_stop by discriminate. apply run_rel_ok. now constructor.
  - rewrite (seq_stop a) by exact (Hk _ _ _ _ _ E). rewrite seq_stop by discriminate.
    apply run_rel_ok. now constructor.
Qed.

Lemma fa_after k0 r h (bK bH : world -> res cres) :
  stopping0 k0 -> fa_rel (bump_k0 k0) r h -> (forall w, run_rel _ fa_rel k0 (bK w) (bH w)) ->
  run_rel _ fa_rel k0 (after_body r bK) (after_body h bH).
Proof.
  intros Hk F Hb. destruct F as [w1 sg1 Hn|s1 w1 r E].
  - destruct sg1 as [|m|]; [rewrite !after_body_nil; apply Hb| |congruence].
    rewrite !after_body_nongo by discriminate. apply run_rel_ok. constructor. destruct m; discriminate.
  - (* r is a result of k0 with its signal bumped: leaving the call undoes the bump *)
    unfold bump_k0 in E. destruct (k0 s1 w1) as [[[a1 w2] sg1]| |] eqn:E0; cbn [bind bumpr] in E; try discriminate.
    injection E as <-. pose proof (Hk _ _ _ _ _ E0) as Hs.
    rewrite !after_body_nongo by (destruct sg1; [congruence|discriminate|discriminate] || discriminate).
    apply run_rel_ok. replace (leave_call (bump sg1)) with sg1 by (destruct sg1; [congruence|reflexivity|reflexivity]).
    now constructor.
Qed.

(* Second instance: which signals a search can return:
   Go, Cut 0 or a signal of its continuation; without cut: Go or a signal of its continuation *)
Definition sig_rel (C : sig -> Prop) (r h : cres) : Prop := r = h /\ C (snd r).
Definition sig_ok (cf : bool) (C : sig -> Prop) : Prop := C Go /\ (cf = false -> C (Cut 0)).
Definition bumpC (C : sig -> Prop) : sig -> Prop :=
  fun sg => (exists c, C c /\ sg = bump c) \/ sg = Cut 0.

Lemma sig_ok_bumpC cf C : sig_ok cf C -> sig_ok false (bumpC C).
Proof. intros [HGo _]. split; [left; now exists Go|right; reflexivity]. Qed.

Lemma sig_seq cf C r h (bK bH : world -> res cres) :
  sig_ok cf C -> sig_rel C r h -> (forall w, run_rel _ sig_rel C (bK w) (bH w)) ->
  run_rel _ sig_rel C (seq (Ok r) bK) (seq (Ok h) bH).
Proof.
  intros _ [<- Hc] Hb. destruct r as [[a1 w1] s1]. destruct s1 as [|m|].
  2, 3: rewrite !seq_stop by discriminate; apply run_rel_ok; now split.
  refine (run_rel_bind _ _ C C _ _ _ _ (Hb w1) _). intros [[a2 w2] s2] h [<- H2]. apply run_rel_ok. now split.
Qed.

Lemma sig_after cf C r h (bK bH : world -> res cres) :
  sig_ok cf C -> sig_rel (bumpC C) r h -> (forall w, run_rel _ sig_rel C (bK w) (bH w)) ->
  run_rel _ sig_rel C (after_body r bK) (after_body h bH).
Proof.
  intros [HGo _] [<- Hc] Hb. destruct r as [[a1 w1] s1]. cbn [snd] in Hc. destruct s1 as [|m|].
  - refine (run_rel_bind _ _ C C _ _ _ _ (Hb w1) _). intros [[a2 w2] s2] h [<- H2]. apply run_rel_ok. now split.
  - rewrite !after_body_nongo by discriminate. apply run_rel_ok. split; [reflexivity|]. cbn [snd].
    destruct m as [|m]; [exact HGo|]. destruct Hc as [(c & Hc & Ec)|Ec]; [|discriminate].
    destruct c; inversion Ec; subst. exact Hc.
  - rewrite !after_body_nongo by discriminate. apply run_rel_ok. split; [reflexivity|]. cbn [snd leave_call].
    destruct Hc as [(c & Hc & Ec)|Ec]; [|discriminate]. destruct c; inversion Ec; subst. exact Hc.
Qed.

Lemma w_print_nil w : w_print w [] = w.
Proof. destruct w. unfold w_print. cbn. now rewrite app_nil_r. Qed.

Section CutOnce.
  Variable kb : kbase.
  Variable bf : nat.

  Lemma first_answer_rel f :
    (forall cf k0 g s w K H, stopping0 k0 -> cutfree_if cf g -> kont_rel _ fa_rel cf k0 K H ->
       run_rel _ fa_rel k0 (csolve kb bf f g s w K) (csolve kb bf f g s w H)) /\
    (forall (cf : bool) k0 t s key idx n w K H, stopping0 k0 -> kont_rel _ fa_rel true k0 K H ->
       run_rel _ fa_rel k0 (cclauses kb bf f t s key idx n w K) (cclauses kb bf f t s key idx n w H)).
  Proof.
    refine (natural kb bf _ fa_rel bump_k0 (fun _ => stopping0) _ _ _ _ _ _ f).
    - intros _. exact stopping0_bump_k0.
    - intros _ k1 w1 _. constructor. discriminate.
    - intros k1 r h. apply fa_mark.
    - intros _ k1 r h _. apply fa_bump.
    - intros _. exact fa_seq.
    - intros _. exact fa_after.
  Qed.

  Lemma signals_rel f :
    (forall cf C g s w K H, sig_ok cf C -> cutfree_if cf g -> kont_rel _ sig_rel cf C K H ->
       run_rel _ sig_rel C (csolve kb bf f g s w K) (csolve kb bf f g s w H)) /\
    (forall cf C t s key idx n w K H, sig_ok cf C -> kont_rel _ sig_rel true C K H ->
       run_rel _ sig_rel C (cclauses kb bf f t s key idx n w K) (cclauses kb bf f t s key idx n w H)).
  Proof.
    refine (natural kb bf _ sig_rel bumpC sig_ok _ _ _ _ _ _ f).
    - exact sig_ok_bumpC.
    - intros cf1 C1 w1 [HGo _]. now split.
    - intros C1 [[a1 w1] s1] h [_ H0] [<- Hc]. split; [reflexivity|]. cbn [mark snd] in *.
      destruct s1; cbn [join0]; auto.
    - intros cf1 C1 [[a1 w1] s1] h _ [<- Hc]. split; [reflexivity|]. left. now exists s1.
    - exact sig_seq.
    - exact sig_after.
  Qed.

  Lemma signals f cf (C : sig -> Prop) g s w k a w' sg :
    sig_ok cf C -> cutfree_if cf g ->
    (forall s1 w1 c a1 w2 sg1, (cf = true -> c = false) -> k s1 w1 c = Ok (a1, w2, sg1) -> C sg1) ->
    csolve kb bf f g s w k = Ok (a, w', sg) -> C sg.
  Proof.
    intros HC Hg Hk E.
    destruct (proj1 (signals_rel f) cf C g s w k k HC Hg) with (2 := E) as (h & _ & _ & HN); [|exact HN].
    intros s1 w1 c Hc [[a1 w2] sg1] E1. eexists. split; [exact E1|]. split; [reflexivity|exact (Hk _ _ _ _ _ _ Hc E1)].
  Qed.

  Theorem first_answer : forall fuel g s w k a w' sg,
    cutfree g = true -> stopping k ->
    csolve kb bf fuel g s w k = Ok (a, w', sg) ->
    match csolve kb bf fuel g s w halt1 with
    | Ok ([], w1, sg1) => a = [] /\ w' = w1 /\ sg = Go /\ sg1 = Go
    | Ok ([s1], w1, Halt) => k s1 w1 false = Ok (a, w', sg)
    | _ => False
    end.
  Proof.
    intros fuel g s w k a w' sg Hcf Hk H.
    set (k0 := fun (s1 : subst) (w1 : world) => k s1 w1 false).
    assert (stopping0 k0) as Hk0.
    { intros s1 w1 a1 w2 sg1 H1. exact (Hk _ _ _ _ _ _ H1). }
    assert (kont_rel _ fa_rel true k0 k halt1) as Hrel.
    { intros s1 w1 c Hc r H1. rewrite (Hc eq_refl) in H1. eexists. split; [reflexivity|]. now constructor. }
    destruct (proj1 (first_answer_rel fuel) true k0 g s w k halt1 Hk0 (fun _ => Hcf) Hrel _ H) as (h & Eh & Fh). rewrite Eh.
    inversion Fh as [w1 sg1 Hn|s1 w1 r0 E0]; subst.
    - assert (sg = Go \/ sg = Halt) as [Hs|Hs]; [|auto|congruence].
      refine (signals fuel true (fun x => x = Go \/ x = Halt) g s w halt1 _ _ _ _ (fun _ => Hcf) _ Eh).
      + split; [now left|discriminate].
      + intros s2 w2 c a2 w3 sg2 _ H2. injection H2 as <-. now right.
    - exact E0.
  Qed.

  Lemma cut_S f s w k :
    csolve kb bf (S f) (GBip n_cut None) s w k = do x <- k s (w_print w []) true; Ok (mark true x).
  Proof. reflexivity. Qed.

  (* what follows the cut, started from the first answer of what stands to its left *)
  Definition and_then (f : nat) (rest : list goal) (s : subst) (w : world) (k : ckont) : res cres :=
    match rest with
    | [] => k s w true
    | _ => csolve kb bf f (GOp OAnd rest) s w (kwrap true k)
    end.

  Lemma kwrap_true_twice c1 k : ckle (kwrap true (kwrap c1 k)) (kwrap true k).
  Proof.
    intros s w c r H. unfold kwrap in *. cbn [orb] in *. rewrite orb_true_r in H.
    destruct (k s w true) as [[[a w1] sg]| |]; cbn [bind] in *; try discriminate.
    rewrite !mark_eq in H. rewrite mark_eq. rewrite join0_idem in H. exact H.
  Qed.

  Lemma and_cut_first f rest s w c1 k a w' sg :
    csolve kb bf f (GOp OAnd (GBip n_cut None :: rest)) s w (kwrap c1 k) = Ok (a, w', sg) ->
    exists sg0, and_then f rest s w k = Ok (a, w', sg0) /\ sg = join0 sg0.
  Proof.
    intro H. destruct f as [|f]; [discriminate|]. rewrite csolve_S in H. unfold csolve_body in H.
    destruct f as [|f]; [destruct rest; discriminate|].
    destruct rest as [|g2 rest]; rewrite cut_S, w_print_nil in H.
    - unfold kwrap in H. rewrite orb_true_r in H.
      destruct (k s w true) as [[[a1 w1] sg1]| |] eqn:E; cbn [bind] in H; try discriminate.
      rewrite !mark_eq in H. injection H as <- <- <-. exists sg1. cbn [and_then]. rewrite join0_idem. auto.
    - destruct (csolve kb bf (S f) (GOp OAnd (g2 :: rest)) s w (kwrap true (kwrap c1 k))) as [[[a1 w1] sg1]| |] eqn:E;
        cbn [bind] in H; try discriminate.
      rewrite !mark_eq in H. injection H as <- <- <-. exists sg1. cbn [and_then]. rewrite join0_idem. split; [|reflexivity].
      exact (csolve_mono kb bf (S f) (S (S f)) _ _ _ _ _ _ ltac:(lia) (kwrap_true_twice c1 k) E).
  Qed.

  Theorem cut_is_once : forall fuel g1 rest s w k a w' sg,
    cutfree g1 = true ->
    csolve kb bf fuel (GOp OAnd (g1 :: GBip n_cut None :: rest)) s w k = Ok (a, w', sg) ->
    match csolve kb bf fuel g1 s w halt1 with
    | Ok ([], w1, _) => a = [] /\ w' = w1 /\ sg = Go
    | Ok ([s1], w1, Halt) =>
        exists sg0, and_then fuel rest s1 w1 k = Ok (a, w', sg0) /\ sg = join0 sg0
    | _ => False
    end.
  Proof.
    intros fuel g1 rest s w k a w' sg Hcf H.
    destruct fuel as [|f]; [discriminate|]. rewrite csolve_S in H. unfold csolve_body in H.
    set (K := fun (s1 : subst) (w1 : world) (c1 : bool) =>
                do y <- csolve kb bf f (GOp OAnd (GBip n_cut None :: rest)) s1 w1 (kwrap c1 k); Ok (mark c1 y)) in H.
    assert (stopping K) as HK.
    { intros s1 w1 c1 a1 w2 sg1 H1. unfold K in H1.
      destruct (csolve kb bf f (GOp OAnd (GBip n_cut None :: rest)) s1 w1 (kwrap c1 k)) as [[[ay wy] sy]| |] eqn:E;
        cbn [bind] in H1; try discriminate.
      destruct (and_cut_first _ _ _ _ _ _ _ _ _ E) as (sg0 & _ & ->).
      rewrite mark_eq in H1. injection H1 as <- <- <-. destruct c1; [rewrite join0_idem|]; apply join0_not_go. }
    pose proof (first_answer f g1 s w K a w' sg Hcf HK H) as HA.
    destruct (csolve kb bf f g1 s w halt1) as [[[[|s1 [|s2 ah]] w1] sg1]| |] eqn:Eh; try contradiction.
    - rewrite (csolve_mono kb bf f (S f) _ _ _ _ _ _ ltac:(lia) (ckle_refl _) Eh).
      destruct HA as (-> & -> & -> & _). auto.
    - destruct sg1; try contradiction.
      rewrite (csolve_mono kb bf f (S f) _ _ _ _ _ _ ltac:(lia) (ckle_refl _) Eh).
      unfold K in HA.
      destruct (csolve kb bf f (GOp OAnd (GBip n_cut None :: rest)) s1 w1 (kwrap false k)) as [[[ay wy] sy]| |] eqn:E;
        cbn [bind mark] in HA; try discriminate.
      injection HA as <- <- <-. destruct (and_cut_first _ _ _ _ _ _ _ _ _ E) as (sg0 & E0 & ->).
      exists sg0. split; [|reflexivity].
      destruct rest as [|g2 rest]; cbn [and_then] in *; [exact E0|].
      exact (csolve_mono kb bf f (S f) _ _ _ _ _ _ ltac:(lia) (ckle_refl _) E0).
  Qed.

  Theorem cut_commits_the_call : forall f t s key idx n w k rl ctr s' g1 rest R,
    (n <=? idx) = false ->
    get_rule kb key idx (next_id w) = Ok (rl, ctr) ->
    unify bf (r_head rl) t s = Ok (Some s') ->
    r_body rl = GOp OAnd (g1 :: GBip n_cut None :: rest) ->
    cutfree g1 = true ->
    cclauses kb bf (S f) t s key idx n w k = Ok R ->
    match csolve kb bf f g1 s' (w_set_id w ctr) halt1 with
    | Ok ([], w2, _) => cclauses kb bf f t s key (idx + 1) n w2 k = Ok R
    | Ok ([s1], w2, Halt) =>
        exists a w' sg0,
          and_then f rest s1 w2 (kbump k) = Ok (a, w', sg0) /\
          R = (a, w', leave_call (join0 sg0)) /\
          forall n', (n' <=? idx) = false -> cclauses kb bf (S f) t s key idx n' w k = Ok R
    | _ => False
    end.
  Proof.
    intros f t s key idx n w k rl ctr s' g1 rest R Hn Hg Hu Hb Hcf H.
    assert (forall n', (n' <=? idx) = false ->
              cclauses kb bf (S f) t s key idx n' w k =
              do x <- csolve kb bf f (r_body rl) s' (w_set_id w ctr) (kbump k);
              after_body x (fun w2 => cclauses kb bf f t s key (idx + 1) n' w2 k)) as Hunf.
    { intros n' Hn'. rewrite cclauses_S. unfold cclauses_body. rewrite Hn', Hg. cbn [bind]. rewrite Hu. cbn [bind].
      rewrite Hb. reflexivity. }
    rewrite (Hunf n Hn) in H.
    destruct (csolve kb bf f (r_body rl) s' (w_set_id w ctr) (kbump k)) as [[[a1 w1] sg1]| |] eqn:E1;
      cbn [bind] in H; try discriminate.
    rewrite Hb in E1. pose proof (cut_is_once _ _ _ _ _ _ _ _ _ Hcf E1) as HB.
    destruct (csolve kb bf f g1 s' (w_set_id w ctr) halt1) as [[[[|s1 [|s2 ah]] w2] sg2]| |] eqn:Eh; try contradiction.
    - destruct HB as (-> & -> & ->). exact (after_body_empty_inv _ _ _ H).
    - destruct sg2; try contradiction. destruct HB as (sg0 & E0 & ->).
      rewrite after_body_nongo in H by apply join0_not_go. injection H as <-.
      exists a1, w1, sg0. split; [exact E0|]. split; [reflexivity|].
      intros n' Hn'. rewrite (Hunf n' Hn'). cbn [bind].
      apply after_body_nongo. apply join0_not_go.
  Qed.

End CutOnce.

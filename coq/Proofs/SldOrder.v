(* Depth-first, left-to-right SLD resolution with the clauses tried in program order: the laws that
   DEFINE it, proved of the reference search (Spec/SpecCut.v) for CUT-FREE programs (no `!` in the goal
   - `cutfree`, Proofs/CutOnce.v - nor in any clause body of the knowledge base - `cutfree_kb`).
   not(..) and time(..) are allowed.

   WHY A STREAM.  The world carries the variable-id counter, and a fetched clause is renamed apart AT
   THE CURRENT COUNTER.  In `g1, g2` the search of g1 is RESUMED, after g2 has been run on g1's first
   answer, in the world g2 left - so g1's second answer is renamed with a counter that depends on what
   g2 consumed.  The law "answers (g1, g2) = for each s1 in (answers g1): answers g2 from s1" is
   therefore FALSE when `answers g1` is a list computed on its own (Properties/C01laws.v has the
   counterexample: p(f($A)). p(g($B)). q(h($C)). q(7). - the ids differ).  What is true, exactly and with
   the world threaded, needs the answers of g1 in RESUMABLE form:

     stream  :=  SNil w                  no more answers; w: the world the search ends in
              |  SCons s w rest          answer s found in world w; `rest w'`: the search resumed in w'
              |  SPanic | SOut           the search panicked / ran out of fuel at this point

   `sld kb bf fuel g s w : stream` is the textbook "stream of successes" interpreter, direct style (no
   continuation, no signal, no flag):  conjunction = sbind, disjunction = sapp, call = sapp over the
   clauses idx = 0, 1, 2, .. (fetch renamed at the counter; head does not unify: next clause, same
   world - the counter is restored; a fact: the unifier; a rule: the stream of its body), not / time: the
   head of the stream only.  Its fuel discipline is that of csolve, so all laws hold at EVERY fuel,
   as equations between results (Ok, Panic and OutOfFuel alike).

   The one law (kb cut-free): `sld_continuation`, csolve fuel g s w k = sfold (sld fuel g s w) k for EVERY k
   - hand each answer to k (flag false), resume the stream in the world k returns, go on while k says Go,
   stop with k's result at the first other signal (this subsumes the first-answer lemma of CutOnce).  The
   laws of conjunction, disjunction, call and clauses follow from it (Properties/C01laws.v).  The last
   part shows when the plain LIST of answers of g1 does suffice. *)
From Coq Require Import Lia.
From Suiron Require Import Model.Term Model.Subst Model.Show Model.Lists Model.Arith Model.Unify
  Model.Compare Model.Builtins Model.Rename Model.Solve Spec.SpecCut
  Proofs.RenameProofs Proofs.SolveDead Proofs.RefinePlain Proofs.RefineCut Proofs.CutOnce.
Open Scope N_scope.

Definition cutfree_kb (kb : kbase) : bool :=
  forallb (fun e : str * list rule => forallb (fun r => cutfree (r_body r)) (snd e)) kb.

Inductive stream :=
| SNil (w : world)
| SCons (s : subst) (w : world) (rest : world -> stream)
| SPanic
| SOut.

Definition slift {A} (r : res A) (f : A -> stream) : stream :=
  match r with Ok a => f a | Panic => SPanic | OutOfFuel => SOut end.

Fixpoint sapp (a : stream) (b : world -> stream) : stream :=
  match a with
  | SNil w => b w
  | SCons s w r => SCons s w (fun w' => sapp (r w') b)
  | SPanic => SPanic
  | SOut => SOut
  end.

Fixpoint sbind (a : stream) (f : subst -> world -> stream) : stream :=
  match a with
  | SNil w => SNil w
  | SCons s w r => sapp (f s w) (fun w' => sbind (r w') f)
  | SPanic => SPanic
  | SOut => SOut
  end.

Definition sunit (s : subst) (w : world) : stream := SCons s w SNil.

(* consuming a stream with a continuation of the reference search *)
Fixpoint sfold (a : stream) (k : ckont) : res cres :=
  match a with
  | SNil w => Ok ([], w, Go)
  | SCons s w r => seq (k s w false) (fun w1 => sfold (r w1) k)
  | SPanic => Panic
  | SOut => OutOfFuel
  end.

Definition ares := (list subst * world)%type.

(* for each answer, in order: run f, resume the stream in the world f leaves *)
Fixpoint seach (a : stream) (f : subst -> world -> res ares) : res ares :=
  match a with
  | SNil w => Ok ([], w)
  | SCons s w r =>
      do x <- f s w; let '(a1, w1) := x in
      do y <- seach (r w1) f; let '(a2, w2) := y in Ok (a1 ++ a2, w2)
  | SPanic => Panic
  | SOut => OutOfFuel
  end.

(* all answers, the search resumed each time in the world of the answer *)
Definition slist (a : stream) : res ares := seach a (fun s w => Ok ([s], w)).

Section Sld.
  Variable kb : kbase.
  Variable bf : nat.

  Section Bodies.
    Variable sld : goal -> subst -> world -> stream.
    Variable sclauses : term -> subst -> str -> N -> N -> world -> stream.

    Definition sld_body (g : goal) (s : subst) (w : world) : stream :=
      match g with
      | GBip fn ts =>
          slift (run_bip bf fn ts s) (fun r =>
            match br_sol r with
            | Some s' => sunit s' (w_print w (br_out r))
            | None => SNil (w_print w (br_out r))
            end)
      | GOp OAnd [] => SPanic
      | GOp OAnd [g1] => sld g1 s w
      | GOp OAnd (g1 :: rest) => sbind (sld g1 s w) (fun s1 w1 => sld (GOp OAnd rest) s1 w1)
      | GOp OOr [] => SPanic
      | GOp OOr [g1] => sld g1 s w
      | GOp OOr (g1 :: rest) => sapp (sld g1 s w) (fun w1 => sld (GOp OOr rest) s w1)
      | GOp ONot (g1 :: _) =>
          match sld g1 s w with
          | SNil w1 => sunit s w1
          | SCons _ w1 _ => SNil w1
          | e => e
          end
      | GOp OTime (g1 :: _) =>
          match sld g1 s w with
          | SNil w1 => SNil (w_print w1 elapsed_token)
          | SCons s1 w1 _ => sunit s1 (w_print w1 elapsed_token)
          | e => e
          end
      | GCall t =>
          slift (term_key t) (fun key =>
            let '(n, w0) := count_rules kb key w in sclauses t s key 0 n w0)
      | _ => SPanic
      end.

    Definition sclauses_body (t : term) (s : subst) (key : str) (idx n : N) (w : world) : stream :=
      if n <=? idx then SNil w
      else
        slift (get_rule kb key idx (next_id w)) (fun gr =>
          let '(r, ctr) := gr in
          slift (unify bf (r_head r) t s) (fun u =>
            match u with
            | None => sclauses t s key (idx + 1) n w
            | Some s' =>
                sapp (if is_gnil (r_body r) then sunit s' (w_set_id w ctr)
                      else sld (r_body r) s' (w_set_id w ctr))
                     (fun w2 => sclauses t s key (idx + 1) n w2)
            end)).
  End Bodies.

  Fixpoint sld (fuel : nat) (g : goal) (s : subst) (w : world) {struct fuel} : stream :=
    match fuel with
    | O => SOut
    | S f => sld_body (sld f) (sclauses f) g s w
    end
  with sclauses (fuel : nat) (t : term) (s : subst) (key : str) (idx n : N) (w : world)
    {struct fuel} : stream :=
    match fuel with
    | O => SOut
    | S f => sclauses_body (sld f) (sclauses f) t s key idx n w
    end.

  Lemma sld_S f g s w : sld (S f) g s w = sld_body (sld f) (sclauses f) g s w.
  Proof. reflexivity. Qed.
  Lemma sclauses_S f t s key idx n w :
    sclauses (S f) t s key idx n w = sclauses_body (sld f) (sclauses f) t s key idx n w.
  Proof. reflexivity. Qed.

  (* `collect` is the continuation that `canswers` (Spec/SpecCut.v) hands to the search, so that
     `canswers fuel q w = answers fuel (GCall q) [] w` by computation (RefineCut.collect is the same
     function); `answers` here is at the level of goals and of `csolve` - SpecLazy.answers is the answer
     list of a query under the cut-free reference `lsolve` *)
  Definition collect : ckont := fun s w _ => Ok ([s], w, Go).
  Definition drop_sig (r : res cres) : res ares := do x <- r; let '(a, w, _) := x in Ok (a, w).
  Definition answers (fuel : nat) (g : goal) (s : subst) (w : world) : res ares :=
    drop_sig (csolve kb bf fuel g s w collect).
  Definition clause_answers (fuel : nat) (t : term) (s : subst) (key : str) (idx n : N) (w : world) : res ares :=
    drop_sig (cclauses kb bf fuel t s key idx n w collect).
End Sld.

Lemma sfold_ext a : forall k1 k2, (forall s w, k1 s w false = k2 s w false) -> sfold a k1 = sfold a k2.
Proof.
  induction a as [w|s w r IH| |]; intros k1 k2 H; cbn [sfold]; try reflexivity.
  rewrite H. apply seq_ext. intro w1. now apply IH.
Qed.

Lemma sfold_sapp a : forall b k, sfold (sapp a b) k = seq (sfold a k) (fun w => sfold (b w) k).
Proof.
  induction a as [w|s w r IH| |]; intros b k; cbn [sapp sfold]; try reflexivity.
  - now rewrite seq_nil_l.
  - rewrite seq_assoc. apply seq_ext. intro w1. apply IH.
Qed.

Lemma sfold_sbind a : forall f k, sfold (sbind a f) k = sfold a (fun s w _ => sfold (f s w) k).
Proof.
  induction a as [w|s w r IH| |]; intros f k; cbn [sbind sfold]; try reflexivity.
  rewrite sfold_sapp. apply seq_ext. intro w1. apply IH.
Qed.

Lemma sfold_sunit s w k : sfold (sunit s w) k = k s w false.
Proof. unfold sunit. cbn [sfold]. apply seq_nil_r. Qed.

Lemma sfold_slift {A} (r : res A) (f : A -> stream) k : sfold (slift r f) k = do x <- r; sfold (f x) k.
Proof. destruct r; reflexivity. Qed.

Lemma sfold_kbump a : forall k,
  sfold a (kbump k) = do x <- sfold a k; let '(l, w, sg) := x in Ok (l, w, bump sg).
Proof.
  induction a as [w|s w r IH| |]; intros k; cbn [sfold]; try reflexivity.
  unfold kbump at 1. unfold seq.
  destruct (k s w false) as [[[a1 w1] [|n|]]| |]; cbn [bind bump]; try reflexivity.
  rewrite IH. destruct (sfold (r w1) k) as [[[a2 w2] s2]| |]; reflexivity.
Qed.

Lemma after_body_bump a k (rest : world -> res cres) :
  (do x <- sfold a (kbump k); after_body x rest) = seq (sfold a k) rest.
Proof.
  rewrite sfold_kbump. unfold seq.
  destruct (sfold a k) as [[[a1 w1] [|n|]]| |]; reflexivity.
Qed.

Lemma w_restore w ctr : w_set_id (w_set_id w ctr) (next_id w) = w.
Proof. destruct w. reflexivity. Qed.

Lemma cutfree_no_has_cut : forall g, cutfree g = true -> has_cut g = false.
Proof.
  induction g as [k gs Hgs|f ts|t|] using goal_ind'; intro H; try reflexivity.
  - rewrite cutfree_op in H. rewrite has_cut_op.
    induction Hgs as [|x l Hx _ IH]; [reflexivity|]. cbn [forallb existsb] in *.
    apply andb_true_iff in H as [H1 H2]. now rewrite (Hx H1), (IH H2).
  - cbn [has_cut]. now apply cutfree_bip in H.
Qed.

Lemma cutfree_kb_get : forall kb key rules r,
  cutfree_kb kb = true -> kb_get kb key = Some rules -> In r rules -> cutfree (r_body r) = true.
Proof.
  induction kb as [|[k rs] kb IH]; intros key rules r H Hg Hin; [discriminate|].
  unfold cutfree_kb in H. cbn [forallb snd] in H. apply andb_true_iff in H as [H1 H2].
  cbn [kb_get] in Hg. destruct (str_eqb k key).
  - injection Hg as <-. rewrite forallb_forall in H1. now apply H1.
  - exact (IH _ _ _ H2 Hg Hin).
Qed.

Lemma cutfree_fetched kb key idx c rl ctr :
  cutfree_kb kb = true -> get_rule kb key idx c = Ok (rl, ctr) -> cutfree (r_body rl) = true.
Proof.
  intros Hkb Hg. destruct (get_rule_spec _ _ _ _ _ _ Hg) as (r0 & rules & Hget & Hnth & He & _).
  unfold erase_rule in He. injection He as _ He.
  rewrite <- cutfree_erase, He, cutfree_erase.
  exact (cutfree_kb_get _ _ _ _ Hkb Hget (nth_error_In _ _ Hnth)).
Qed.

Section Main.
  Variable kb : kbase.
  Variable bf : nat.
  Hypothesis Hkb : cutfree_kb kb = true.

  Definition sl_solve (f : nat) : Prop :=
    forall g s w k, cutfree g = true -> csolve kb bf f g s w k = sfold (sld kb bf f g s w) k.
  Definition sl_clauses (f : nat) : Prop :=
    forall t s key idx n w k, cclauses kb bf f t s key idx n w k = sfold (sclauses kb bf f t s key idx n w) k.

  Lemma sl_all : forall f, sl_solve f /\ sl_clauses f.
  Proof.
    induction f as [|f [IHs IHc]].
    { split; red; intros; reflexivity. }
    split.
    - intros g s w k Hcf. rewrite csolve_S, sld_S. unfold csolve_body, sld_body.
      destruct g as [op gs|fn ts|t|]; try reflexivity.
      + destruct gs as [|g1 rest]; [destruct op; reflexivity|].
        destruct (cutfree_cons _ op _ _ Hcf) as [Hc1 Hc2]. destruct op.
        * destruct rest as [|g2 rest]; [exact (IHs _ _ _ _ Hc1)|].
          rewrite (IHs _ _ _ _ Hc1), sfold_sbind. apply sfold_ext. intros s1 w1.
          rewrite (IHs _ _ _ _ Hc2). cbn [mark].
          rewrite (sfold_ext _ (kwrap false k) k).
          -- destruct (sfold (sld kb bf f (GOp OAnd (g2 :: rest)) s1 w1) k); reflexivity.
          -- intros s2 w2. unfold kwrap. cbn [orb mark]. destruct (k s2 w2 false); reflexivity.
        * destruct rest as [|g2 rest]; [exact (IHs _ _ _ _ Hc1)|].
          rewrite sfold_sapp, (IHs _ _ _ _ Hc1). apply seq_ext. intro w1. exact (IHs _ _ _ _ Hc2).
        * rewrite (cutfree_no_has_cut _ Hc1), (IHs _ _ _ _ Hc1).
          destruct (sld kb bf f g1 s w) as [w1|s1 w1 r| |]; cbn [sfold bind halt1 seq]; try reflexivity.
          now rewrite sfold_sunit.
        * rewrite (cutfree_no_has_cut _ Hc1), (IHs _ _ _ _ Hc1).
          destruct (sld kb bf f g1 s w) as [w1|s1 w1 r| |]; cbn [sfold bind halt1 seq]; try reflexivity.
          now rewrite sfold_sunit.
      + rewrite sfold_slift.
        destruct (run_bip bf fn ts s) as [rb| |] eqn:Eb; cbn [bind]; try reflexivity.
        rewrite (run_bip_no_cut _ _ _ _ _ (cutfree_bip _ _ Hcf) Eb).
        destruct (br_sol rb) as [s'|]; [|reflexivity].
        rewrite sfold_sunit. cbn [mark]. destruct (k s' (w_print w (br_out rb)) false); reflexivity.
      + rewrite sfold_slift. destruct (term_key t) as [key| |]; cbn [bind]; try reflexivity.
        destruct (count_rules kb key w) as [n w0]. apply IHc.
    - intros t s key idx n w k. rewrite cclauses_S, sclauses_S. unfold cclauses_body, sclauses_body.
      destruct (n <=? idx); [reflexivity|]. rewrite sfold_slift.
      destruct (get_rule kb key idx (next_id w)) as [[rl ctr]| |] eqn:Eg; cbn [bind]; try reflexivity.
      rewrite sfold_slift.
      destruct (unify bf (r_head rl) t s) as [[s'|]| |]; cbn [bind]; try reflexivity.
      2:{ rewrite w_restore. apply IHc. }
      rewrite sfold_sapp. destruct (is_gnil (r_body rl)) eqn:En.
      + rewrite sfold_sunit. apply seq_ext. intro w2. apply IHc.
      + rewrite (IHs _ _ _ _ (cutfree_fetched _ _ _ _ _ _ Hkb Eg)), after_body_bump.
        apply seq_ext. intro w2. apply IHc.
  Qed.
End Main.

Definition always_go (k : ckont) : Prop :=
  forall s w a w' sg, k s w false = Ok (a, w', sg) -> sg = Go.

Definition with_go (r : res ares) : res cres := do x <- r; let '(l, w) := x in Ok (l, w, Go).

Lemma sfold_seach a : forall k, always_go k ->
  sfold a k = with_go (seach a (fun s w => drop_sig (k s w false))).
Proof.
  induction a as [w|s w r IH| |]; intros k Hk; cbn [sfold seach]; try reflexivity.
  unfold seq, drop_sig, with_go.
  destruct (k s w false) as [[[a1 w1] sg1]| |] eqn:E; cbn [bind]; try reflexivity.
  rewrite (Hk _ _ _ _ _ E). rewrite (IH w1 k Hk). unfold with_go, drop_sig.
  destruct (seach (r w1) (fun s0 w0 => do x <- k s0 w0 false; (let '(a, w2, _) := x in Ok (a, w2)))) as [[a2 w2]| |];
    reflexivity.
Qed.

Lemma drop_with_go r : drop_sig (with_go r) = r.
Proof. unfold drop_sig, with_go. destruct r as [[l w]| |]; reflexivity. Qed.

Lemma always_go_collect : always_go collect.
Proof. intros s w a w' sg H. unfold collect in H. now inversion H. Qed.

Lemma seach_ext a : forall f1 f2, (forall s w, f1 s w = f2 s w) -> seach a f1 = seach a f2.
Proof.
  induction a as [w|s w r IH| |]; intros f1 f2 H; cbn [seach]; try reflexivity.
  rewrite H. destruct (f2 s w) as [[a1 w1]| |]; cbn [bind]; try reflexivity. now rewrite (IH w1 f1 f2 H).
Qed.

Lemma seach_sapp a : forall b f,
  seach (sapp a b) f =
  do x <- seach a f; let '(a1, w1) := x in
  do y <- seach (b w1) f; let '(a2, w2) := y in Ok (a1 ++ a2, w2).
Proof.
  induction a as [w|s w r IH| |]; intros b f; cbn [sapp seach bind]; try reflexivity.
  - destruct (seach (b w) f) as [[a2 w2]| |]; reflexivity.
  - destruct (f s w) as [[a1 w1]| |]; cbn [bind]; try reflexivity. rewrite IH.
    destruct (seach (r w1) f) as [[a2 w2]| |]; cbn [bind]; try reflexivity.
    destruct (seach (b w2) f) as [[a3 w3]| |]; cbn [bind]; try reflexivity. now rewrite app_assoc.
Qed.

Lemma seach_sbind a : forall g f, seach (sbind a g) f = seach a (fun s w => seach (g s w) f).
Proof.
  induction a as [w|s w r IH| |]; intros g f; cbn [sbind seach]; try reflexivity.
  rewrite seach_sapp. destruct (seach (g s w) f) as [[a1 w1]| |]; cbn [bind]; try reflexivity. now rewrite IH.
Qed.

Lemma seach_slift {A} (r : res A) (g : A -> stream) f : seach (slift r g) f = do x <- r; seach (g x) f.
Proof. destruct r; reflexivity. Qed.

Lemma seach_sunit s w f : seach (sunit s w) f = f s w.
Proof.
  unfold sunit. cbn [seach]. destruct (f s w) as [[a1 w1]| |]; cbn [bind]; try reflexivity. now rewrite app_nil_r.
Qed.

Lemma seach_pure a : forall (h : subst -> list subst),
  seach a (fun s w => Ok (h s, w)) = do x <- slist a; let '(l, w') := x in Ok (flat_map h l, w').
Proof.
  unfold slist. induction a as [w|s w r IH| |]; intro h; cbn [seach bind]; try reflexivity.
  rewrite IH. destruct (seach (r w) (fun s0 w0 => Ok ([s0], w0))) as [[a2 w2]| |]; cbn [bind]; reflexivity.
Qed.

Section Laws.
  Variable kb : kbase.
  Variable bf : nat.
  Hypothesis Hkb : cutfree_kb kb = true.

  Theorem sld_continuation : forall fuel g s w k, cutfree g = true ->
    csolve kb bf fuel g s w k = sfold (sld kb bf fuel g s w) k.
  Proof. intros fuel g s w k H. exact (proj1 (sl_all kb bf Hkb fuel) g s w k H). Qed.

  Theorem sld_continuation_clauses : forall fuel t s key idx n w k,
    cclauses kb bf fuel t s key idx n w k = sfold (sclauses kb bf fuel t s key idx n w) k.
  Proof. intros. exact (proj2 (sl_all kb bf Hkb fuel) t s key idx n w k). Qed.

  Theorem sld_continuation_go : forall fuel g s w k, cutfree g = true -> always_go k ->
    csolve kb bf fuel g s w k
    = with_go (seach (sld kb bf fuel g s w) (fun s1 w1 => drop_sig (k s1 w1 false))).
  Proof. intros fuel g s w k Hcf Hk. rewrite (sld_continuation _ _ _ _ _ Hcf). now apply sfold_seach. Qed.

  Theorem answers_sld : forall fuel g s w, cutfree g = true ->
    answers kb bf fuel g s w = slist (sld kb bf fuel g s w).
  Proof.
    intros fuel g s w Hcf. unfold answers. rewrite (sld_continuation_go _ _ _ _ _ Hcf always_go_collect).
    rewrite drop_with_go. reflexivity.
  Qed.

  Theorem clause_answers_sld : forall fuel t s key idx n w,
    clause_answers kb bf fuel t s key idx n w = slist (sclauses kb bf fuel t s key idx n w).
  Proof.
    intros. unfold clause_answers. rewrite sld_continuation_clauses, (sfold_seach _ _ always_go_collect).
    rewrite drop_with_go. reflexivity.
  Qed.

  Theorem sld_conjunction : forall f g1 g2 rest s w, cutfree (GOp OAnd (g1 :: g2 :: rest)) = true ->
    answers kb bf (S f) (GOp OAnd (g1 :: g2 :: rest)) s w
    = seach (sld kb bf f g1 s w) (fun s1 w1 => answers kb bf f (GOp OAnd (g2 :: rest)) s1 w1).
  Proof.
    intros f g1 g2 rest s w Hcf. destruct (cutfree_cons _ OAnd _ _ Hcf) as [Hc1 Hc2].
    rewrite (answers_sld _ _ _ _ Hcf), sld_S. cbn [sld_body]. unfold slist. rewrite seach_sbind.
    apply seach_ext. intros s1 w1. now rewrite (answers_sld _ _ _ _ Hc2).
  Qed.

  Theorem sld_conjunction_k : forall f g1 g2 rest s w k, cutfree (GOp OAnd (g1 :: g2 :: rest)) = true ->
    csolve kb bf (S f) (GOp OAnd (g1 :: g2 :: rest)) s w k
    = sfold (sld kb bf f g1 s w) (fun s1 w1 _ => csolve kb bf f (GOp OAnd (g2 :: rest)) s1 w1 k).
  Proof.
    intros f g1 g2 rest s w k Hcf. destruct (cutfree_cons _ OAnd _ _ Hcf) as [Hc1 Hc2].
    rewrite (sld_continuation _ _ _ _ _ Hcf), sld_S. cbn [sld_body]. rewrite sfold_sbind.
    apply sfold_ext. intros s1 w1. now rewrite (sld_continuation _ _ _ _ _ Hc2).
  Qed.

  Theorem sld_signal_go : forall fuel g s w k a w' sg, cutfree g = true -> always_go k ->
    csolve kb bf fuel g s w k = Ok (a, w', sg) -> sg = Go.
  Proof.
    intros fuel g s w k a w' sg Hcf Hk H. rewrite (sld_continuation_go _ _ _ _ _ Hcf Hk) in H.
    unfold with_go in H.
    destruct (seach (sld kb bf fuel g s w) (fun s1 w1 => drop_sig (k s1 w1 false))) as [[l w1]| |];
      cbn [bind] in H; try discriminate. now inversion H.
  Qed.
End Laws.

(* What the search observes of the world: it reads the id counter and the stop hook and only APPENDS
   to the output.  `weq`: two worlds that differ at most in their output.  Started in weq worlds, the
   streams of a goal are similar (`ssim`): same answers, weq worlds, and resumed in weq worlds again
   similar.  Hence a continuation whose answers depend on the substitution only and which changes
   at most the output cannot influence the resumed search (sfold_output_only). *)
Definition weq (w w' : world) : Prop :=
  next_id w = next_id w' /\ stop_flag w = stop_flag w' /\ stop_after w = stop_after w'.

Lemma weq_refl w : weq w w.
Proof. repeat split. Qed.
Lemma weq_sym w w' : weq w w' -> weq w' w.
Proof. intros (H1 & H2 & H3). repeat split; congruence. Qed.
Lemma weq_trans w1 w2 w3 : weq w1 w2 -> weq w2 w3 -> weq w1 w3.
Proof. intros (H1 & H2 & H3) (K1 & K2 & K3). repeat split; congruence. Qed.
Lemma weq_print w w' o o' : weq w w' -> weq (w_print w o) (w_print w' o').
Proof. intros (H1 & H2 & H3). repeat split; assumption. Qed.
Lemma weq_set_id w w' c : weq w w' -> weq (w_set_id w c) (w_set_id w' c).
Proof. intros (H1 & H2 & H3). repeat split; assumption. Qed.

Lemma weq_count_rules kb key w w' : weq w w' ->
  fst (count_rules kb key w) = fst (count_rules kb key w') /\
  weq (snd (count_rules kb key w)) (snd (count_rules kb key w')).
Proof.
  intros Hw. pose proof Hw as (H1 & H2 & H3). unfold count_rules, query_stopped. rewrite <- H1, <- H2, <- H3.
  destruct (stop_after w) as [[|p]|]; cbn [fst snd].
  - split; [reflexivity|]. repeat split.
  - destruct (stop_flag w); cbn [fst snd]; (split; [reflexivity|]); repeat split.
  - destruct (stop_flag w) eqn:Ef; cbn [fst snd]; (split; [reflexivity|]); exact Hw.
Qed.

Fixpoint ssim (a : stream) : stream -> Prop :=
  match a with
  | SNil w => fun b => match b with SNil w' => weq w w' | _ => False end
  | SCons s w r => fun b =>
      match b with
      | SCons s' w' r' => s = s' /\ weq w w' /\ forall v v', weq v v' -> ssim (r v) (r' v')
      | _ => False
      end
  | SPanic => fun b => match b with SPanic => True | _ => False end
  | SOut => fun b => match b with SOut => True | _ => False end
  end.

Lemma ssim_sunit s w w' : weq w w' -> ssim (sunit s w) (sunit s w').
Proof. intro H. unfold sunit. cbn [ssim]. split; [reflexivity|]. split; [exact H|]. intros v v' Hv. exact Hv. Qed.

Lemma ssim_sapp a : forall a' b b', ssim a a' ->
  (forall v v', weq v v' -> ssim (b v) (b' v')) -> ssim (sapp a b) (sapp a' b').
Proof.
  induction a as [w|s w r IH| |]; intros [w'|s' w' r'| |] b b' Ha Hb; cbn [ssim] in Ha; try contradiction;
    cbn [sapp ssim]; try exact I.
  - now apply Hb.
  - destruct Ha as (-> & Hw & Hr). split; [reflexivity|]. split; [exact Hw|].
    intros v v' Hv. apply IH; [now apply Hr|exact Hb].
Qed.

Lemma ssim_sbind a : forall a' f f', ssim a a' ->
  (forall s v v', weq v v' -> ssim (f s v) (f' s v')) -> ssim (sbind a f) (sbind a' f').
Proof.
  induction a as [w|s w r IH| |]; intros [w'|s' w' r'| |] f f' Ha Hf; cbn [ssim] in Ha; try contradiction;
    cbn [sbind ssim]; try exact I.
  - exact Ha.
  - destruct Ha as (-> & Hw & Hr). apply ssim_sapp; [now apply Hf|].
    intros v v' Hv. apply IH; [now apply Hr|exact Hf].
Qed.

Lemma ssim_slift {A} (r : res A) (f f' : A -> stream) :
  (forall x, ssim (f x) (f' x)) -> ssim (slift r f) (slift r f').
Proof. intro H. destruct r; cbn [slift ssim]; [apply H|exact I|exact I]. Qed.

Section Sim.
  Variable kb : kbase.
  Variable bf : nat.

  Lemma sld_weq : forall f,
    (forall g s w w', weq w w' -> ssim (sld kb bf f g s w) (sld kb bf f g s w')) /\
    (forall t s key idx n w w', weq w w' ->
       ssim (sclauses kb bf f t s key idx n w) (sclauses kb bf f t s key idx n w')).
  Proof.
    induction f as [|f [IHs IHc]].
    { split; intros; exact I. }
    split.
    - intros g s w w' Hw. rewrite !sld_S. unfold sld_body.
      destruct g as [op gs|fn ts|t|]; try exact I.
      + destruct gs as [|g1 rest]; [destruct op; exact I|]. pose proof (IHs g1 s w w' Hw) as H1. destruct op.
        * destruct rest as [|g2 rest]; [exact H1|].
          apply ssim_sbind; [exact H1|]. intros s1 v v' Hv. now apply IHs.
        * destruct rest as [|g2 rest]; [exact H1|].
          apply ssim_sapp; [exact H1|]. intros v v' Hv. now apply IHs.
        * destruct (sld kb bf f g1 s w) as [w1|s1 w1 r| |], (sld kb bf f g1 s w') as [w1'|s1' w1' r'| |];
            cbn [ssim] in H1; try contradiction; try exact I.
          -- cbn [ssim]. now apply weq_print.
          -- destruct H1 as (-> & H1 & _). apply ssim_sunit. now apply weq_print.
        * destruct (sld kb bf f g1 s w) as [w1|s1 w1 r| |], (sld kb bf f g1 s w') as [w1'|s1' w1' r'| |];
            cbn [ssim] in H1; try contradiction; try exact I.
          -- now apply ssim_sunit.
          -- destruct H1 as (_ & H1 & _). exact H1.
      + apply ssim_slift. intro rb. destruct (br_sol rb) as [s'|].
        * apply ssim_sunit. now apply weq_print.
        * cbn [ssim]. now apply weq_print.
      + apply ssim_slift. intro key. destruct (weq_count_rules kb key w w' Hw) as [E1 E2].
        destruct (count_rules kb key w) as [n w0], (count_rules kb key w') as [n' w0']. cbn [fst snd] in *.
        subst n'. now apply IHc.
    - intros t s key idx n w w' Hw. rewrite !sclauses_S. unfold sclauses_body.
      destruct (n <=? idx); [exact Hw|]. destruct Hw as (H1 & H2 & H3). rewrite <- H1.
      assert (weq w w') as Hw by (repeat split; assumption).
      apply ssim_slift. intros [rl ctr]. apply ssim_slift. intros [s'|]; [|now apply IHc].
      apply ssim_sapp.
      + destruct (is_gnil (r_body rl)); [apply ssim_sunit|apply IHs]; now apply weq_set_id.
      + intros v v' Hv. now apply IHc.
  Qed.

  Lemma sfold_output_only (h : subst -> list subst) k :
    (forall s1 w1 a w2 sg, k s1 w1 false = Ok (a, w2, sg) -> a = h s1 /\ weq w1 w2 /\ sg = Go) ->
    forall a a' l w' sg, ssim a a' -> sfold a k = Ok (l, w', sg) ->
    exists l0 w0, slist a' = Ok (l0, w0) /\ l = flat_map h l0 /\ weq w0 w' /\ sg = Go.
  Proof.
    intro Hk. unfold slist.
    induction a as [w|s w r IH| |]; intros a' l w' sg Ha H; cbn [sfold] in H; try discriminate H;
      destruct a' as [v|s' v r'| |]; cbn [ssim] in Ha; try contradiction.
    - injection H as <- <- <-. exists [], v. cbn [seach flat_map].
      split; [reflexivity|]. split; [reflexivity|]. split; [now apply weq_sym|reflexivity].
    - destruct Ha as (<- & Hw & Hr). unfold seq in H.
      destruct (k s w false) as [[[a1 w1] sg1]| |] eqn:Ek; cbn [bind] in H; try discriminate.
      destruct (Hk _ _ _ _ _ Ek) as (-> & Hw1 & ->).
      destruct (sfold (r w1) k) as [[[a2 w2] sg2]| |] eqn:E2; cbn [bind] in H; try discriminate.
      injection H as <- <- <-.
      assert (weq w1 v) as Hv by (eapply weq_trans; [apply weq_sym; exact Hw1|exact Hw]).
      destruct (IH w1 (r' v) _ _ _ (Hr _ _ Hv) E2) as (l0 & w0 & E0 & -> & Hw0 & ->).
      exists (s :: l0), w0. cbn [seach bind]. rewrite E0. cbn [bind flat_map app].
      split; [reflexivity|]. split; [reflexivity|]. split; [exact Hw0|reflexivity].
  Qed.
End Sim.

Theorem sld_continuation_quiet : forall kb bf, cutfree_kb kb = true ->
  forall fuel g s w k (h : subst -> list subst) l w' sg, cutfree g = true ->
  (forall s1 w1 a w2 sg1, k s1 w1 false = Ok (a, w2, sg1) -> a = h s1 /\ weq w1 w2 /\ sg1 = Go) ->
  csolve kb bf fuel g s w k = Ok (l, w', sg) ->
  exists l0 w0, answers kb bf fuel g s w = Ok (l0, w0) /\ l = flat_map h l0 /\ weq w0 w' /\ sg = Go.
Proof.
  intros kb bf Hkb fuel g s w k h l w' sg Hcf Hk H.
  rewrite (sld_continuation kb bf Hkb _ _ _ _ _ Hcf) in H. rewrite (answers_sld kb bf Hkb _ _ _ _ Hcf).
  refine (sfold_output_only h k Hk _ _ _ _ _ _ H). apply (proj1 (sld_weq kb bf fuel)). apply weq_refl.
Qed.

Theorem sld_conjunction_quiet : forall kb bf, cutfree_kb kb = true ->
  forall f g1 g2 rest s w (h : subst -> list subst) l w', cutfree (GOp OAnd (g1 :: g2 :: rest)) = true ->
  (forall s1 w1 a w2, answers kb bf f (GOp OAnd (g2 :: rest)) s1 w1 = Ok (a, w2) -> a = h s1 /\ weq w1 w2) ->
  answers kb bf (S f) (GOp OAnd (g1 :: g2 :: rest)) s w = Ok (l, w') ->
  exists l0 w0, answers kb bf f g1 s w = Ok (l0, w0) /\ l = flat_map h l0 /\ weq w0 w'.
Proof.
  intros kb bf Hkb f g1 g2 rest s w h l w' Hcf Hq H.
  destruct (cutfree_cons _ OAnd _ _ Hcf) as [Hc1 Hc2].
  unfold answers, drop_sig in H.
  destruct (csolve kb bf (S f) (GOp OAnd (g1 :: g2 :: rest)) s w collect) as [[[l1 w1] sg1]| |] eqn:E;
    cbn [bind] in H; try discriminate.
  inversion H; subst. rewrite (sld_conjunction_k kb bf Hkb _ _ _ _ _ _ _ Hcf) in E.
  rewrite <- (sld_continuation kb bf Hkb _ _ _ _ _ Hc1) in E.
  assert (forall s1 w1 a w2 sg2,
            csolve kb bf f (GOp OAnd (g2 :: rest)) s1 w1 collect = Ok (a, w2, sg2) ->
            a = h s1 /\ weq w1 w2 /\ sg2 = Go) as Hk.
  { intros s1 w1 a w2 sg2 E1.
    pose proof (sld_signal_go kb bf Hkb _ _ _ _ _ _ _ _ Hc2 always_go_collect E1) as ->.
    destruct (Hq s1 w1 a w2) as [-> Hw].
    + unfold answers, drop_sig. rewrite E1. reflexivity.
    + auto. }
  destruct (sld_continuation_quiet kb bf Hkb f g1 s w _ h l w' sg1 Hc1 Hk E) as (l0 & w0 & E0 & -> & Hw & _).
  exists l0, w0. auto.
Qed.

(* a built-in predicate to the right of g1 (print, nl, a comparison, a unification, ..) is such a continuation *)
Definition bip_answers (bf : nat) (fn : str) (ts : option (list term)) (s : subst) : list subst :=
  match run_bip bf fn ts s with
  | Ok r => match br_sol r with Some s' => [s'] | None => [] end
  | _ => []
  end.

(* one execution of a built-in from (s, w): its answers (none or one) and the world with its text appended *)
Definition bip_once (bf : nat) (fn : str) (ts : option (list term)) (s : subst) (w : world) : res ares :=
  do r <- run_bip bf fn ts s;
  Ok (match br_sol r with Some s' => [s'] | None => [] end, w_print w (br_out r)).

Lemma answers_bip kb bf f fn ts s w : answers kb bf (S f) (GBip fn ts) s w = bip_once bf fn ts s w.
Proof.
  unfold answers, drop_sig, bip_once. rewrite csolve_S. cbn [csolve_body].
  destruct (run_bip bf fn ts s) as [r| |]; cbn [bind]; try reflexivity.
  destruct (br_sol r) as [s'|]; cbn [bind]; [|reflexivity].
  unfold collect. cbn [bind]. destruct (br_cut r); reflexivity.
Qed.

Lemma bip_output_only kb bf f fn ts s w a w2 :
  answers kb bf f (GBip fn ts) s w = Ok (a, w2) -> a = bip_answers bf fn ts s /\ weq w w2.
Proof.
  destruct f as [|f]; [discriminate|]. rewrite answers_bip. unfold bip_once, bip_answers.
  destruct (run_bip bf fn ts s) as [rb| |]; cbn [bind]; try discriminate.
  intro H. injection H as <- <-. split; [reflexivity|repeat split].
Qed.


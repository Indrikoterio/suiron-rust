(* C12 (built_in_arithmetic.rs): a finished `evaluate` is the left-to-right fold of the resolved
   arguments that Spec/SpecArith.v names - in Z, or in Flocq's binary64 - and conversely.  Integer
   steps and folds are characterised by equivalences, so both directions come from one lemma. *)
From Coq Require Import Lia.
From Suiron Require Import Model.Term Model.Subst Model.Arith Spec.SpecCompare Spec.SpecArith Proofs.CompareProofs.
Open Scope Z_scope.

Definition aop_of (op : arithop) : aop :=
  match op with AAdd => SAdd | ASub => SSub | AMul => SMul | ADiv => SDiv end.

Lemma in_i64_iff z : Arith.in_i64 z = true <-> SpecArith.in_i64 z.
Proof.
  unfold Arith.in_i64, SpecArith.in_i64, i64_min, i64_max. lia.
Qed.

Lemma chk_iff z a : chk z = Ok a <-> a = z /\ SpecArith.in_i64 z.
Proof. unfold chk. rewrite <- in_i64_iff. destruct (Arith.in_i64 z); intuition congruence. Qed.

(* a step that does not panic computed the operation, and met no exclusion *)
Lemma int_step_iff op acc x a : int_step op acc x = Ok a <->
  a = zop (aop_of op) acc x /\ (aop_of op = SDiv -> x <> 0) /\ SpecArith.in_i64 (zop (aop_of op) acc x).
Proof.
  destruct op; cbn [int_step aop_of zop]; try (rewrite chk_iff; intuition discriminate).
  destruct (Z.eqb_spec x 0) as [->|Hx]; [|rewrite chk_iff]; intuition discriminate.
Qed.

Lemma int_fold_iff op : forall xs acc v, int_fold op acc xs = Ok v <->
  v = fold_left (zop (aop_of op)) xs acc /\ int_safe (aop_of op) acc xs.
Proof.
  induction xs as [|x xs IH]; intros acc v; cbn [int_fold fold_left int_safe].
  - split; [intro H; inversion H|intros [-> _]]; auto.
  - rewrite bind_Ok. split.
    + intros (a & E & H). apply int_step_iff in E as (-> & Hz & Hr). apply IH in H. tauto.
    + intros (-> & Hz & Hr & Hs). eexists. split; [apply int_step_iff|apply IH]; auto.
Qed.

Lemma float_fold_spec op xs acc : float_fold op acc xs = fold_left (fop (aop_of op)) xs acc.
Proof.
  unfold float_fold. revert acc; induction xs as [|x xs IH]; intro acc; simpl; [reflexivity|].
  rewrite IH. f_equal. destruct op; reflexivity.
Qed.

Definition num_of (n : snumber) : num := match n with NInt z => NumI z | NFloat f => NumF f end.

Lemma get_numbers_spec fuel ss : forall args ns hf,
  get_numbers fuel args ss = Ok (ns, hf) ->
  resolve_nums ss args (map num_of ns) /\ hf = existsb is_float (map num_of ns).
Proof.
  induction args as [|a args IH]; intros ns hf H; cbn [get_numbers] in H.
  - inversion H. split; [constructor|reflexivity].
  - apply bind_Ok in H as (g & E & H). apply ggt_chain in E.
    destruct g as [g|]; try discriminate. destruct g; try discriminate;
      apply bind_Ok in H as ([ns' hf'] & E2 & H); inversion H; subst;
      destruct (IH _ _ E2) as [Hr ->]; (split; [now constructor|reflexivity]).
Qed.

Lemma resolve_nums_fun ss args ns1 ns2 :
  resolve_nums ss args ns1 -> resolve_nums ss args ns2 -> ns1 = ns2.
Proof.
  intros H1; revert ns2; induction H1 as [|a n args ns Ha H IH]; intros ns2 H2; inversion H2; subst.
  - reflexivity.
  - f_equal; [|now apply IH].
    match goal with Hc : chain ss a (Some (num_term ?y)) |- _ =>
      pose proof (chain_fun _ _ _ _ Ha Hc) as Heq end.
    inversion Heq as [Hn]. destruct n, y; simpl in Hn; congruence.
Qed.

Lemma get_floats_map ns : get_floats ns = map as_float (map num_of ns).
Proof. unfold get_floats. rewrite map_map. apply map_ext. intros []; reflexivity. Qed.

Lemma get_integers_map ns : existsb is_float (map num_of ns) = false ->
  get_integers ns = map as_int (map num_of ns).
Proof.
  induction ns as [|[f|z] ns IH]; simpl; intro H; try discriminate; [reflexivity|].
  f_equal. now apply IH.
Qed.

(* once the arguments are resolved, the evaluation is the specified fold, and conversely *)
Lemma evaluate_numbers fuel op args ss sn v :
  get_numbers fuel args ss = Ok (sn, existsb is_float (map num_of sn)) ->
  evaluate fuel op args ss = Ok v <->
  spec_value (aop_of op) (map num_of sn) = Some v /\ ints_safe (aop_of op) (map num_of sn).
Proof.
  intro E. unfold evaluate, spec_value, ints_safe. rewrite E. cbn [bind].
  destruct (existsb is_float (map num_of sn)) eqn:Ef.
  - rewrite <- get_floats_map.
    (* evaluate's case split on the operator is start_and_rest; the float operations stay folded *)
    replace (let fs := get_floats sn in _) with
      (match start_and_rest (aop_of op) f64_zero f64_one (get_floats sn) with
       | Some (s, r) => Ok (TFloat (fold_left (fop (aop_of op)) r s))
       | None => Panic
       end) by (destruct op; try destruct (get_floats sn); cbn [aop_of start_and_rest]; rewrite ?float_fold_spec; reflexivity).
    fold f64_zero. change (to_f64 1) with f64_one.
    destruct (start_and_rest _ _ _ _) as [[s r]|]; [|split; [discriminate|intros [H _]; discriminate]].
    split; [intro H; inversion H; auto|intros [H _]; now inversion H].
  - rewrite <- (get_integers_map _ Ef).
    replace (let is := get_integers sn in _) with
      (match start_and_rest (aop_of op) 0 1 (get_integers sn) with
       | Some (s, r) => do z <- int_fold op s r; Ok (TInt z)
       | None => Panic
       end) by (destruct op; try destruct (get_integers sn); reflexivity).
    destruct (start_and_rest _ _ _ _) as [[s r]|]; [|split; [discriminate|intros [H _]; discriminate]].
    rewrite bind_Ok. split.
    + intros (z & Ez & H). apply int_fold_iff in Ez as [-> Hs]. inversion H. auto.
    + intros [H [Hs|Hs]]; [discriminate|]. eexists. split; [apply int_fold_iff; eauto|]. now inversion H.
Qed.

Lemma evaluate_resolved fuel op args ss v : evaluate fuel op args ss = Ok v ->
  exists sn, get_numbers fuel args ss = Ok (sn, existsb is_float (map num_of sn)) /\
             resolve_nums ss args (map num_of sn).
Proof.
  unfold evaluate. rewrite bind_Ok. intros ([sn hf] & E & _).
  destruct (get_numbers_spec _ _ _ _ _ E) as [Hr ->]. eauto.
Qed.

Lemma get_numbers_complete ss : forall args ns,
  resolve_nums ss args ns ->
  exists fuel0, forall fuel, (fuel0 <= fuel)%nat ->
    exists sn, get_numbers fuel args ss = Ok (sn, existsb is_float ns) /\ map num_of sn = ns.
Proof.
  induction 1 as [|a n args ns Ha H [f1 IH]].
  - exists O. intros fuel _. exists []. split; reflexivity.
  - destruct (chain_ggt _ _ _ Ha) as [f0 Hf0]. exists (Nat.max f0 f1). intros fuel Hle.
    destruct (IH fuel) as (sn & E & Em); [lia|]. simpl. rewrite (Hf0 fuel) by lia. simpl.
    destruct n as [z|f]; simpl; rewrite E; simpl.
    + exists (NInt z :: sn). split; [reflexivity|]. simpl. now rewrite Em.
    + exists (NFloat f :: sn). split; [reflexivity|]. simpl. now rewrite Em.
Qed.

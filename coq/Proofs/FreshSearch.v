(* C10 during a search: every clause fetched while a query is being solved is renamed to variable
   ids ABOVE every id in use - above every id of the goal, of the substitution set, and of every
   slot index of the substitution set.

   `below n x`: every variable id occurring in x is <= n.  The invariant of the reference search
   (Spec/SpecCut.v) is: the goal and the substitution set are `below` the id counter of the world.
   A clause fetch returns ids in (counter, counter'], so they are disjoint from everything in use
   (clause_fetched_is_apart); unification and every built-in predicate only bind variables that
   occur in their operands to terms that occur there (unify_below, run_bip_below), so the invariant
   is kept along the whole search (fresh_all) and every answer is below the final counter
   (canswers_fresh).  Through the refinement theorems the same holds for the answers of the engine
   model (engine_drain_fresh here; one request after the other in Properties/C10.v). *)
From Coq Require Import Lia ZifyN.
From Suiron Require Import Model.Term Model.Subst Model.Show Model.Lists Model.Arith Model.Unify
  Model.Compare Model.Builtins Model.Rename Model.Solve Spec.SpecCut
  Proofs.UnifyInv Proofs.RenameProofs
  Proofs.SolveDead Proofs.RefineCut Proofs.SolveQuiet.
Open Scope N_scope.

Definition below (n : N) (t : term) : Prop := forall id name, In (id, name) (tvars t) -> id <= n.

Definition below_ss (n : N) (ss : subst) : Prop :=
  (forall i t, ss_get ss i = Some t -> below n t) /\ N.of_nat (length ss) <= n + 1.

Definition below_goal (n : N) (g : goal) : Prop := forall id name, In (id, name) (gvars g) -> id <= n.

Definition below_args (n : N) (ts : option (list term)) : Prop :=
  match ts with Some l => Forall (below n) l | None => True end.

Lemma below_mono n m t : n <= m -> below n t -> below m t.
Proof. intros Hle H id name Hin. specialize (H id name Hin). lia. Qed.

Lemma below_ss_mono n m ss : n <= m -> below_ss n ss -> below_ss m ss.
Proof.
  intros Hle [H1 H2]. split; [|lia]. intros i t Hg. eapply below_mono; [exact Hle|]. eapply H1; eauto.
Qed.

Lemma below_goal_mono n m g : n <= m -> below_goal n g -> below_goal m g.
Proof. intros Hle H id name Hin. specialize (H id name Hin). lia. Qed.

Lemma Forall_below_mono n m l : n <= m -> Forall (below n) l -> Forall (below m) l.
Proof. intros Hle H. eapply Forall_impl; [|exact H]. intros t. now apply below_mono. Qed.

Lemma below_novars n t : tvars t = [] -> below n t.
Proof. intros E id name Hin. rewrite E in Hin. destruct Hin. Qed.

Lemma below_var n id name : below n (TVar id name) <-> id <= n.
Proof.
  split.
  - intro H. apply (H id name). now left.
  - intros Hle i nm [E|[]]. injection E as <-. exact Hle.
Qed.

Lemma below_flat {A} (vars : A -> list (N * str)) n l :
  (forall id name, In (id, name) (flat_map vars l) -> id <= n) <->
  Forall (fun x => forall id name, In (id, name) (vars x) -> id <= n) l.
Proof.
  split.
  - intro H. apply Forall_forall. intros x Hx id name Hin. apply (H id name).
    apply in_flat_map. exists x. split; assumption.
  - intros H id name Hin. apply in_flat_map in Hin as (x & Hx & Hin).
    rewrite Forall_forall in H. exact (H x Hx id name Hin).
Qed.

Lemma below_complex n ts : below n (TComplex ts) <-> Forall (below n) ts.
Proof. apply (below_flat tvars). Qed.

Lemma below_fun n name args : below n (TFun name args) <-> Forall (below n) args.
Proof. apply (below_flat tvars). Qed.

Lemma below_list n a b c tv : below n (TList a b c tv) <-> below n a /\ below n b.
Proof.
  split.
  - intro H. split; intros id name Hin; apply (H id name); cbn [tvars]; apply in_or_app; auto.
  - intros [Ha Hb] id name Hin. cbn [tvars] in Hin. apply in_app_or in Hin as [Hin|Hin]; eauto.
Qed.

Lemma below_constant n v : is_constant v = true -> below n v.
Proof. destruct v; try discriminate; intros _; now apply below_novars. Qed.

Lemma below_goal_call n t : below_goal n (GCall t) <-> below n t.
Proof. split; intro H; exact H. Qed.

Lemma below_goal_bip n fn ts : below_goal n (GBip fn ts) <-> below_args n ts.
Proof.
  destruct ts as [l|]; cbn [below_args].
  - apply (below_flat tvars).
  - split; [auto|]. intros _ id name [].
Qed.

Lemma below_goal_op n k gs : below_goal n (GOp k gs) <-> Forall (below_goal n) gs.
Proof. apply (below_flat gvars). Qed.

Lemma below_ss_nil n : below_ss n [].
Proof. split; [|cbn [length]; lia]. intros i t H. now rewrite ss_get_nil in H. Qed.

Lemma ss_set_nat_length : forall i ss t, length (ss_set_nat ss i t) = Nat.max (length ss) (S i).
Proof.
  induction i as [|i IH]; intros [|x r] t; cbn [ss_set_nat length]; try reflexivity.
  - destruct (length r); reflexivity.
  - rewrite IH. cbn [length]. reflexivity.
  - rewrite IH. reflexivity.
Qed.

Lemma below_ss_get n ss i t : below_ss n ss -> ss_get ss i = Some t -> below n t.
Proof. intros [H _]. apply H. Qed.

(* Unification keeps the invariant: `below n` is inherited by parts, and a binding step
   extends the set at most to the slot of a variable of an operand *)
Lemma below_parts n : parts_closed (below n) (below n).
Proof.
  split.
  - intros ts. apply below_complex.
  - auto.
  - intros h nx c H. now apply below_list in H.
  - intros h nx c H. split; [exact H|]. right. now apply below_list in H.
  - intros name args v _. apply below_constant.
Qed.

Definition ugood (n : N) (rec : term -> term -> subst -> res (option subst)) : Prop :=
  forall a b ss ss', below n a -> below n b -> below_ss n ss ->
    rec a b ss = Ok (Some ss') -> below_ss n ss'.

Theorem unify_below n : forall fuel, ugood n (unify fuel).
Proof.
  intros fuel a b ss ss' Ha Hb [Hs Hl] H.
  edestruct (unify_inv _ _ (below_parts n)
               (fun s s' => N.of_nat (length s) <= n + 1 -> N.of_nat (length s') <= n + 1)
               (fun _ L => L) (fun _ _ _ A B L => B (A L))) as [HR Hs'];
    [| |exact H|exact Ha|exact Hb|exact Hs|split; auto].
  - intros f s id name other _ _ _ _ _ Hid _ _ L. apply below_var in Hid.
    unfold ss_set. rewrite ss_set_nat_length. lia.
  - right. intros s _. cbn [length]. lia.
Qed.

Section BipsBelow.
  Variable n : N.

  Lemma get_ground_term_below : forall fuel t ss g,
    below n t -> below_ss n ss -> get_ground_term fuel t ss = Ok (Some g) -> below n g.
  Proof.
    induction fuel as [|f IH]; intros t ss g Ht Hs H;
      destruct t; cbn [get_ground_term] in H; try (injection H as <-; exact Ht).
    - destruct (ss_get ss id); discriminate.
    - destruct (ss_get ss id) as [u|] eqn:Eg; [|discriminate].
      exact (IH _ _ _ (below_ss_get _ _ _ _ Hs Eg) Hs H).
  Qed.

  Lemma get_list_below fuel t ss l :
    below n t -> below_ss n ss -> get_list fuel t ss = Ok (Some l) -> below n l.
  Proof.
    intros Ht Hs H. destruct t; cbn [get_list] in H; try discriminate.
    - destruct (get_ground_term fuel (TVar id name) ss) as [[g|]| |] eqn:E; cbn [bind] in H; try discriminate.
      destruct (is_list g); inversion H; subst. eapply get_ground_term_below; eauto.
    - injection H as <-. exact Ht.
  Qed.

  Lemma walk_below : forall fuel b head slist ss l,
    below n head -> below n slist -> below_ss n ss ->
    walk fuel b head slist ss = Ok l -> Forall (below n) l.
  Proof.
    induction fuel as [|f IH]; intros b head slist ss l Hh Hl Hs H; cbn [walk] in H;
      (destruct (is_nil head); [injection H as <-; constructor|]); [discriminate|].
    destruct slist as [| | | | | | |t nx c tv|]; try (injection H as <-; constructor; [exact Hh|constructor]).
    apply below_list in Hl as [Ht Hn].
    (* every arm that goes on puts `head` in front of a walk from a node below n *)
    assert (forall t0 n0 r, below n t0 -> below n n0 ->
              (do r0 <- walk f b t0 n0 ss; Ok (head :: r0)) = Ok r -> Forall (below n) r) as Hgo.
    { intros t0 n0 r Ht0 Hn0 Hr. destruct (walk f b t0 n0 ss) as [r0| |] eqn:E; cbn [bind] in Hr; try discriminate.
      injection Hr as <-. constructor; [exact Hh|exact (IH _ _ _ _ _ Ht0 Hn0 Hs E)]. }
    destruct (tv && negb (is_anon t)); [|exact (Hgo _ _ _ Ht Hn H)].
    destruct (get_list f t ss) as [[g|]| |] eqn:Eg; cbn [bind] in H; try discriminate.
    - pose proof (get_list_below _ _ _ _ Ht Hs Eg) as Hg.
      destruct g as [| | | | | | |t2 n2 c2 tv2|]; try exact (Hgo _ _ _ Ht Hn H).
      apply below_list in Hg as [Hg1 Hg2]. exact (Hgo _ _ _ Hg1 Hg2 H).
    - destruct b; [injection H as <-; constructor; [exact Hh|constructor]|exact (Hgo _ _ _ Ht Hn H)].
  Qed.

  Lemma get_terms_below fuel t ss l :
    below n t -> below_ss n ss -> get_terms fuel t ss = Ok l -> Forall (below n) l.
  Proof.
    intros Ht Hs H. unfold get_terms in H.
    destruct (get_ground_term fuel t ss) as [[g|]| |] eqn:E; cbn [bind] in H; try discriminate.
    - pose proof (get_ground_term_below _ _ _ _ Ht Hs E) as Hg.
      destruct g; try (injection H as <-; constructor; [exact Hg|constructor]; fail).
      apply below_list in Hg as [Hg1 Hg2]. exact (walk_below _ _ _ _ _ _ Hg1 Hg2 Hs H).
    - injection H as <-. constructor; [exact Ht|constructor].
  Qed.

  Lemma make_list_of_terms_below l : Forall (below n) l -> below n (make_list_of_terms l).
  Proof.
    unfold make_list_of_terms. induction 1 as [|x l Hx _ IH]; cbn [fold_right].
    - now apply below_novars.
    - apply below_list. split; assumption.
  Qed.

  Lemma resolve_var_below fuel t ss t' :
    below n t -> below_ss n ss ->
    match t with
    | TVar _ _ => do g <- get_ground_term fuel t ss; Ok (match g with Some g0 => g0 | None => t end)
    | _ => Ok t
    end = Ok t' -> below n t'.
  Proof.
    intros Ht Hs H. destruct t; try (injection H as <-; exact Ht).
    destruct (get_ground_term fuel (TVar id name) ss) as [[g|]| |] eqn:E; cbn [bind] in H; try discriminate;
      injection H as <-; [eapply get_ground_term_below; eauto|exact Ht].
  Qed.

  Lemma append_collect_below fuel : forall l ss out,
    Forall (below n) l -> below_ss n ss -> append_collect fuel l ss = Ok out -> Forall (below n) out.
  Proof.
    induction l as [|t0 rest IH]; intros ss out Hl Hs H; cbn [append_collect] in H.
    - injection H as <-. constructor.
    - inversion Hl as [|? ? Ht0 Hrest]; subst.
      match type of H with bind ?e _ = _ => destruct e as [t| |] eqn:Et end; cbn [bind] in H; try discriminate.
      pose proof (resolve_var_below _ _ _ _ Ht0 Hs Et) as Ht.
      match type of H with bind ?e _ = _ => destruct e as [here| |] eqn:Eh end; cbn [bind] in H; try discriminate.
      destruct (append_collect fuel rest ss) as [more| |] eqn:Em; cbn [bind] in H; try discriminate.
      injection H as <-. apply Forall_app. split; [|exact (IH _ _ Hrest Hs Em)].
      destruct t; try (injection Eh as <-; constructor; [exact Ht|constructor]).
      + injection Eh as <-. constructor.
      + exact (get_terms_below _ _ _ _ Ht Hs Eh).
  Qed.

  Lemma bip_append_below fuel ts ss ss' :
    below_args n ts -> below_ss n ss -> bip_append fuel ts ss = Ok (Some ss') -> below_ss n ss'.
  Proof.
    intros Ht Hs H. destruct ts as [ts|]; cbn [bip_append below_args] in *; [|discriminate].
    destruct (length ts <? 2)%nat eqn:El; [discriminate|].
    destruct (append_collect fuel (removelast ts) ss) as [out| |] eqn:E; cbn [bind] in H; try discriminate.
    rewrite (app_removelast_last TNil) in Ht by (intros ->; discriminate El).
    apply Forall_app in Ht as [Hin Hlast]. inversion Hlast; subst.
    eapply unify_below; [eassumption| |exact Hs|exact H].
    apply make_list_of_terms_below. exact (append_collect_below _ _ _ _ Hin Hs E).
  Qed.

  Lemma bip_count_below fuel ts ss ss' :
    below_args n ts -> below_ss n ss -> bip_count fuel ts ss = Ok (Some ss') -> below_ss n ss'.
  Proof.
    intros Ht Hs H. destruct ts as [[|l [|out [|x r]]]|]; cbn [bip_count below_args] in *; try discriminate.
    inversion Ht as [|? ? _ Ht']; subst. inversion Ht' as [|? ? Hout _]; subst.
    destruct (count_terms fuel l ss) as [c| |]; cbn [bind] in H; try discriminate.
    eapply unify_below; [exact Hout| |exact Hs|exact H]. now apply below_novars.
  Qed.

  Lemma filter_terms_below fuel pat incl : forall l ss out,
    Forall (below n) l -> filter_terms fuel pat incl l ss = Ok out -> Forall (below n) out.
  Proof.
    induction l as [|x r IH]; intros ss out Hl H; cbn [filter_terms] in H.
    - injection H as <-. constructor.
    - inversion Hl as [|? ? Hx Hr]; subst.
      destruct (unify fuel pat x ss) as [u| |]; cbn [bind] in H; try discriminate.
      destruct (filter_terms fuel pat incl r ss) as [rest| |] eqn:E; cbn [bind] in H; try discriminate.
      pose proof (IH _ _ Hr E) as Hrest.
      destruct (Bool.eqb _ incl); injection H as <-; [constructor; assumption|assumption].
  Qed.

  Lemma filter_below fuel pat uni ss incl l :
    below n uni -> below_ss n ss -> filter fuel pat uni ss incl = Ok (Some l) -> below n l.
  Proof.
    intros Hu Hs H. unfold filter in H.
    destruct (get_ground_term fuel uni ss) as [[g|]| |] eqn:E; cbn [bind] in H; try discriminate.
    pose proof (get_ground_term_below _ _ _ _ Hu Hs E) as Hg.
    destruct g as [| | | | | | |t nx c tv|]; try discriminate.
    apply below_list in Hg as [Hg1 Hg2].
    destruct (walk fuel false t nx ss) as [elems| |] eqn:Ew; cbn [bind] in H; try discriminate.
    destruct (filter_terms fuel pat incl elems ss) as [kept| |] eqn:Ef; cbn [bind] in H; try discriminate.
    injection H as <-. apply make_list_of_terms_below.
    eapply filter_terms_below; [|exact Ef]. exact (walk_below _ _ _ _ _ _ Hg1 Hg2 Hs Ew).
  Qed.

  Lemma bip_filter_below fuel incl ts ss ss' :
    below_args n ts -> below_ss n ss -> bip_filter fuel incl ts ss = Ok (Some ss') -> below_ss n ss'.
  Proof.
    intros Ht Hs H. destruct ts as [[|pat [|lst [|out [|x r]]]]|]; cbn [bip_filter below_args] in *; try discriminate.
    inversion Ht as [|? ? _ Ht1]; subst. inversion Ht1 as [|? ? Hlst Ht2]; subst.
    inversion Ht2 as [|? ? Hout _]; subst.
    destruct (filter fuel pat lst ss incl) as [[l|]| |] eqn:E; cbn [bind] in H; try discriminate.
    eapply unify_below; [exact Hout| |exact Hs|exact H]. exact (filter_below _ _ _ _ _ _ Hlst Hs E).
  Qed.

  Lemma resolve_each_below fuel : forall l ss out,
    Forall (below n) l -> below_ss n ss -> resolve_each fuel l ss = Ok out -> Forall (below n) out.
  Proof.
    induction l as [|t rest IH]; intros ss out Hl Hs H; cbn [resolve_each] in H.
    - injection H as <-. constructor.
    - inversion Hl as [|? ? Ht Hrest]; subst.
      match type of H with bind ?e _ = _ => destruct e as [t'| |] eqn:Et end; cbn [bind] in H; try discriminate.
      destruct (resolve_each fuel rest ss) as [r'| |] eqn:Er; cbn [bind] in H; try discriminate.
      injection H as <-. constructor; [exact (resolve_var_below _ _ _ _ Ht Hs Et)|exact (IH _ _ Hrest Hs Er)].
  Qed.

  Lemma functor_first_below fuel o1 fn ss ss' :
    below n o1 -> below n fn -> below_ss n ss ->
    match o1 with
    | TAtom ms => do m <- atoms_match fn ms; Ok (if m then Some ss else None)
    | TVar _ _ => unify fuel o1 fn ss
    | _ => Ok None
    end = Ok (Some ss') -> below_ss n ss'.
  Proof.
    intros Ho Hf Hs H. destruct o1; try discriminate.
    - destruct (atoms_match fn s) as [[|]| |]; cbn [bind] in H; try discriminate. injection H as <-. exact Hs.
    - exact (unify_below _ _ _ _ _ _ Ho Hf Hs H).
  Qed.

  Lemma bip_functor_below fuel ts ss ss' :
    below_args n ts -> below_ss n ss -> bip_functor fuel ts ss = Ok (Some ss') -> below_ss n ss'.
  Proof.
    intros Ht Hs H. destruct ts as [ts|]; cbn [bip_functor below_args] in *; [|discriminate].
    destruct ((length ts <? 2)%nat || (3 <? length ts)%nat); [discriminate|].
    destruct (resolve_each fuel ts ss) as [out| |] eqn:E; cbn [bind] in H; try discriminate.
    pose proof (resolve_each_below _ _ _ _ Ht Hs E) as Hout.
    destruct out as [|c out]; [discriminate|]. destruct c as [| | | | | |cs| |]; try discriminate.
    destruct out as [|o1 rest]; [discriminate|]. destruct cs as [|fn cargs]; [discriminate|].
    pose proof (Forall_inv (proj1 (below_complex _ _) (Forall_inv Hout))) as Hfn.
    pose proof (Forall_inv (Forall_inv_tail Hout)) as Ho1.
    pose proof (Forall_inv_tail (Forall_inv_tail Hout)) as Hrest. clear Hout.
    destruct rest as [|o2 rest'].
    - exact (functor_first_below _ _ _ _ _ Ho1 Hfn Hs H).
    - match type of H with bind ?e _ = _ => destruct e as [[s1|]| |] eqn:E1 end; cbn [bind] in H; try discriminate.
      pose proof (functor_first_below _ _ _ _ _ Ho1 Hfn Hs E1) as Hs1.
      eapply unify_below; [exact (Forall_inv Hrest)| |exact Hs1|exact H]. now apply below_novars.
  Qed.

  Lemma bip_compare_below fuel op ts ss ss' :
    below_ss n ss -> bip_compare fuel op ts ss = Ok (Some ss') -> below_ss n ss'.
  Proof.
    intros Hs H. destruct ts as [ts|]; cbn [bip_compare] in H; [|discriminate].
    destruct (get_two_constants fuel ts ss) as [two| |]; cbn [bind] in H; try discriminate.
    destruct two as [[l r]|]; [|discriminate].
    destruct (compare_constants op l r); inversion H; subst. exact Hs.
  Qed.

  Lemma pure_bip_sol x r s' : pure_bip x = Ok r -> br_sol r = Some s' -> x = Ok (Some s').
  Proof.
    unfold pure_bip. destruct x as [s| |]; cbn [bind]; intros H Hr; try discriminate.
    injection H as <-. cbn [br_sol] in Hr. now subst.
  Qed.

  Theorem run_bip_below fuel fn ts s r s' :
    below_args n ts -> below_ss n s -> run_bip fuel fn ts s = Ok r -> br_sol r = Some s' -> below_ss n s'.
  Proof.
    intros Ht Hs H Hr. unfold run_bip in H.
    repeat match type of H with (if ?c then _ else _) = _ => destruct c end.
    (* the pure built-ins, each by its own lemma; left: print, print_list, unify, nl, !, fail, an unknown name *)
    all: try (pose proof (pure_bip_sol _ _ _ H Hr) as E;
              first [exact (bip_append_below _ _ _ _ Ht Hs E)|exact (bip_functor_below _ _ _ _ Ht Hs E)
                    |exact (bip_filter_below _ _ _ _ _ Ht Hs E)|exact (bip_compare_below _ _ _ _ _ Hs E)
                    |exact (bip_count_below _ _ _ _ Ht Hs E)]).
    - destruct (bip_print fuel ts s); try discriminate H. injection H as <-. injection Hr as <-. exact Hs.
    - destruct (bip_print_list fuel ts s); try discriminate H. injection H as <-. injection Hr as <-. exact Hs.
    - destruct ts as [[|l [|r0 rest]]|]; try discriminate H.
      + exact (unify_below _ _ _ _ _ _ (Forall_inv Ht) (Forall_inv (Forall_inv_tail Ht)) Hs (pure_bip_sol _ _ _ H Hr)).
      + injection H as <-. discriminate Hr.
    - injection H as <-. injection Hr as <-. exact Hs.
    - injection H as <-. injection Hr as <-. exact Hs.
    - injection H as <-. discriminate Hr.
    - discriminate H.
  Qed.
End BipsBelow.

(* the key local fact: the clause `cclauses_body` fetches at counter `next_id w` has all its
   variable ids strictly above the counter - hence, under the invariant, above every id of the goal
   term, above every slot of the substitution set, and in no term bound there *)
Lemma ss_get_beyond (s : subst) id : N.of_nat (length s) <= id -> ss_get s id = None.
Proof.
  intro H. unfold ss_get. assert (nth_error s (N.to_nat id) = None) as ->; [|reflexivity].
  apply nth_error_None. lia.
Qed.

Lemma below_not_in n t id : below n t -> n < id -> ~ In id (map fst (tvars t)).
Proof.
  intros Ht Hlt Hin. apply in_map_iff in Hin as ([i nm] & E & Hin). cbn [fst] in E. subst i.
  specialize (Ht id nm Hin). lia.
Qed.

Theorem clause_fetched_is_apart kb key idx w r ctr t s :
  get_rule kb key idx (next_id w) = Ok (r, ctr) ->
  below (next_id w) t -> below_ss (next_id w) s ->
  next_id w <= ctr /\
  (forall id name, In (id, name) (rvars r) ->
     next_id w < id <= ctr /\
     ~ In id (map fst (tvars t)) /\
     N.of_nat (length s) <= id /\ ss_get s id = None /\
     (forall i u, ss_get s i = Some u -> ~ In id (map fst (tvars u)))) /\
  below ctr (r_head r) /\ below_goal ctr (r_body r).
Proof.
  intros Hg Ht Hs. destruct (get_rule_spec _ _ _ _ _ _ Hg) as (r0 & rules & _ & _ & _ & Hle & _ & Hf).
  split; [exact Hle|]. split; [|split].
  - intros id name Hin. destruct (Hf id name Hin) as [Hlo Hhi]. destruct Hs as [Hs1 Hs2].
    split; [exact (conj Hlo Hhi)|]. split; [exact (below_not_in _ _ _ Ht Hlo)|].
    split; [clear - Hlo Hs2; lia|]. split; [apply ss_get_beyond; clear - Hlo Hs2; lia|].
    intros i u Hu. exact (below_not_in _ _ _ (Hs1 i u Hu) Hlo).
  - intros id name Hin. apply (Hf id name). apply in_or_app. now left.
  - intros id name Hin. apply (Hf id name). apply in_or_app. now right.
Qed.

Lemma count_rules_id kb key w n w' : count_rules kb key w = (n, w') -> next_id w' = next_id w.
Proof.
  unfold count_rules, query_stopped. destruct w as [i fl af o]. cbn [stop_after stop_flag next_id out].
  destruct af as [[|p]|]; cbn; try (destruct fl); intro H; inversion H; reflexivity.
Qed.

(* what a search, or a continuation, started at counter n delivers: the counter has not gone down and
   every answer is below the final counter *)
Definition res_ok (n : N) (x : cres) : Prop :=
  let '(a, wE, _) := x in n <= next_id wE /\ Forall (below_ss (next_id wE)) a.

Definition kont_ok (n : N) (k : ckont) : Prop :=
  forall s1 w1 c x, below_ss (next_id w1) s1 -> n <= next_id w1 ->
    k s1 w1 c = Ok x -> res_ok (next_id w1) x.

Lemma res_ok_mono n m x : n <= m -> res_ok m x -> res_ok n x.
Proof. destruct x as [[a wE] sg]. cbn [res_ok]. intros Hle [H1 H2]. split; [lia|exact H2]. Qed.

Lemma res_ok_mark n c x : res_ok n x -> res_ok n (mark c x).
Proof. destruct x as [[a wE] sg], c; cbn [mark res_ok]; auto. Qed.

Lemma res_ok_nil n w sg : n <= next_id w -> res_ok n ([], w, sg).
Proof. intro H. cbn [res_ok]. split; [exact H|constructor]. Qed.

Lemma Forall_below_ss_mono n m l : n <= m -> Forall (below_ss n) l -> Forall (below_ss m) l.
Proof. intros Hle H. eapply Forall_impl; [|exact H]. intro s. now apply below_ss_mono. Qed.

(* the answers found so far (up to wa) followed by those of the rest (started at wa) *)
Lemma res_ok_app n a1 wa a2 wE sg sg' :
  res_ok n (a1, wa, sg) -> res_ok (next_id wa) (a2, wE, sg') -> res_ok n (a1 ++ a2, wE, sg').
Proof.
  cbn [res_ok]. intros [H1 H2] [H3 H4]. split; [lia|]. apply Forall_app. split; [|exact H4].
  eapply Forall_below_ss_mono; [exact H3|exact H2].
Qed.

(* x, then b from the world x ends in unless x says otherwise (seq, after_body): the signal plays no role *)
Lemma res_ok_then n x (b : world -> res cres) R :
  (forall r, x = Ok r -> res_ok n r) ->
  (forall w1 R2, n <= next_id w1 -> b w1 = Ok R2 -> res_ok (next_id w1) R2) ->
  seq x b = Ok R \/ (do v <- x; after_body v b) = Ok R -> res_ok n R.
Proof.
  intros Hx Hb H. destruct x as [[[a1 w1] s1]| |]; [|destruct H as [H|H]; discriminate H..].
  pose proof (Hx _ eq_refl) as H1. destruct s1 as [|m|].
  - assert ((do y <- b w1; let '(a2, w2, s2) := y in Ok (a1 ++ a2, w2, s2)) = Ok R) as H' by (destruct H as [H|H]; exact H).
    destruct (b w1) as [[[a2 w2] s2]| |] eqn:E2; try discriminate H'.
    injection H' as <-. exact (res_ok_app _ _ _ _ _ _ _ H1 (Hb _ _ (proj1 H1) E2)).
  - destruct H as [H|H]; [|destruct m]; injection H as <-; exact H1.
  - destruct H as [H|H]; injection H as <-; exact H1.
Qed.

Lemma kont_ok_mono n m k : n <= m -> kont_ok n k -> kont_ok m k.
Proof. intros Hle Hk s1 w1 c x Hs Hm. apply Hk; [exact Hs|lia]. Qed.

Lemma kont_ok_kbump n k : kont_ok n k -> kont_ok n (kbump k).
Proof.
  intros Hk s1 w1 c x Hs Hn H. unfold kbump in H.
  destruct (k s1 w1 false) as [[[a w'] sg]| |] eqn:E; cbn [bind] in H; try discriminate.
  injection H as <-. exact (Hk _ _ _ _ Hs Hn E).
Qed.

Lemma kont_ok_kwrap n c1 k : kont_ok n k -> kont_ok n (kwrap c1 k).
Proof.
  intros Hk s1 w1 c x Hs Hn H. unfold kwrap in H.
  destruct (k s1 w1 (c1 || c)) as [y| |] eqn:E; cbn [bind] in H; try discriminate.
  injection H as <-. apply res_ok_mark. exact (Hk _ _ _ _ Hs Hn E).
Qed.

Lemma kont_ok_one n sg : kont_ok n (fun s w _ => Ok ([s], w, sg)).
Proof.
  intros s1 w1 c x Hs Hn H. injection H as <-. cbn [res_ok]. split; [lia|]. constructor; [exact Hs|constructor].
Qed.

Section Search.
  Variable kb : kbase.
  Variable bf : nat.

  Definition fresh_solve (f : nat) : Prop :=
    forall g s w k R, below_goal (next_id w) g -> below_ss (next_id w) s -> kont_ok (next_id w) k ->
      csolve kb bf f g s w k = Ok R -> res_ok (next_id w) R.

  Definition fresh_clauses (f : nat) : Prop :=
    forall t s key idx n w k R, below (next_id w) t -> below_ss (next_id w) s -> kont_ok (next_id w) k ->
      cclauses kb bf f t s key idx n w k = Ok R -> res_ok (next_id w) R.

  Lemma below_goal_head n k g rest : below_goal n (GOp k (g :: rest)) -> below_goal n g.
  Proof. intro H. apply below_goal_op in H. now inversion H. Qed.
  Lemma below_goal_tail n k k' g rest : below_goal n (GOp k (g :: rest)) -> below_goal n (GOp k' rest).
  Proof. intro H. apply below_goal_op in H. apply below_goal_op. now inversion H. Qed.

  Lemma fresh_all : forall f, fresh_solve f /\ fresh_clauses f.
  Proof.
    induction f as [|f [IHs IHc]].
    { split; red; intros; discriminate. }
    split.
    - intros g s w k R Hg Hs Hk H. rewrite csolve_S in H. unfold csolve_body in H.
      destruct g as [op gs|fn ts|t|]; try discriminate.
      + destruct op.
        * destruct gs as [|g1 [|g2 rest]]; try discriminate.
          -- exact (IHs _ _ _ _ _ (below_goal_head _ _ _ _ Hg) Hs Hk H).
          -- refine (IHs _ _ _ _ _ (below_goal_head _ _ _ _ Hg) Hs _ H).
             intros s1 w1 c1 x Hs1 Hn1 H1.
             destruct (csolve kb bf f (GOp OAnd (g2 :: rest)) s1 w1 (kwrap c1 k)) as [y| |] eqn:E;
               cbn [bind] in H1; try discriminate.
             injection H1 as <-. apply res_ok_mark.
             refine (IHs _ _ _ _ _ _ Hs1 _ E).
             ++ eapply below_goal_mono; [exact Hn1|]. exact (below_goal_tail _ _ OAnd _ _ Hg).
             ++ apply kont_ok_kwrap. eapply kont_ok_mono; [exact Hn1|exact Hk].
        * destruct gs as [|g1 [|g2 rest]]; try discriminate.
          -- exact (IHs _ _ _ _ _ (below_goal_head _ _ _ _ Hg) Hs Hk H).
          -- refine (res_ok_then _ _ _ _ _ _ (or_introl H)).
             { intros r E1. exact (IHs _ _ _ _ _ (below_goal_head _ _ _ _ Hg) Hs Hk E1). }
             intros w1 R2 Hn1 E2. refine (IHs _ _ _ _ _ _ _ _ E2).
             ++ eapply below_goal_mono; [exact Hn1|]. exact (below_goal_tail _ _ OOr _ _ Hg).
             ++ eapply below_ss_mono; [exact Hn1|exact Hs].
             ++ eapply kont_ok_mono; [exact Hn1|exact Hk].
        * destruct gs as [|g1 rest]; try discriminate. destruct (has_cut g1); [discriminate|].
          destruct (csolve kb bf f g1 s w halt1) as [[[a w1] s1]| |] eqn:E1; cbn [bind] in H; try discriminate.
          pose proof (IHs _ _ _ _ _ (below_goal_head _ _ _ _ Hg) Hs (kont_ok_one _ Halt) E1) as [Hn1 Ha].
          destruct a as [|s2 a'].
          -- injection H as <-. apply res_ok_nil. exact Hn1.
          -- inversion Ha as [|? ? Hs2 _]; subst. eapply res_ok_mono; [exact Hn1|].
             exact (Hk s2 (w_print w1 elapsed_token) false R Hs2 Hn1 H).
        * destruct gs as [|g1 rest]; try discriminate. destruct (has_cut g1); [discriminate|].
          destruct (csolve kb bf f g1 s w halt1) as [[[a w1] s1]| |] eqn:E1; cbn [bind] in H; try discriminate.
          pose proof (IHs _ _ _ _ _ (below_goal_head _ _ _ _ Hg) Hs (kont_ok_one _ Halt) E1) as [Hn1 Ha].
          destruct a as [|s2 a'].
          -- eapply res_ok_mono; [exact Hn1|].
             exact (Hk s w1 false R (below_ss_mono _ _ _ Hn1 Hs) Hn1 H).
          -- injection H as <-. apply res_ok_nil. exact Hn1.
      + apply below_goal_bip in Hg.
        destruct (run_bip bf fn ts s) as [r| |] eqn:Er; cbn [bind] in H; try discriminate.
        destruct (br_sol r) as [s'|] eqn:Esol.
        * destruct (k s' (w_print w (br_out r)) (br_cut r)) as [x| |] eqn:Ek; cbn [bind] in H; try discriminate.
          injection H as <-. apply res_ok_mark.
          pose proof (run_bip_below _ _ _ _ _ _ _ Hg Hs Er Esol) as Hs'.
          exact (Hk s' (w_print w (br_out r)) (br_cut r) x Hs' (N.le_refl _) Ek).
        * injection H as <-. apply res_ok_nil. cbn [next_id w_print]. lia.
      + destruct (term_key t) as [key| |]; cbn [bind] in H; try discriminate.
        destruct (count_rules kb key w) as [n w0] eqn:Ec.
        pose proof (count_rules_id _ _ _ _ _ Ec) as Hid.
        rewrite <- Hid in *. exact (IHc _ _ _ _ _ _ _ _ Hg Hs Hk H).
    - intros t s key idx n w k R Ht Hs Hk H. rewrite cclauses_S in H. unfold cclauses_body in H.
      destruct (n <=? idx); [injection H as <-; apply res_ok_nil; lia|].
      destruct (get_rule kb key idx (next_id w)) as [[r ctr]| |] eqn:Eg; cbn [bind] in H; try discriminate.
      destruct (clause_fetched_is_apart _ _ _ _ _ _ _ _ Eg Ht Hs) as (Hle & _ & Hhead & Hbody).
      destruct (unify bf (r_head r) t s) as [[s'|]| |] eqn:Eu; cbn [bind] in H; try discriminate.
      2:{ (* the head does not unify: the counter is restored *)
          exact (IHc t s key (idx + 1) n (w_set_id (w_set_id w ctr) (next_id w)) k R Ht Hs Hk H). }
      pose proof (unify_below ctr _ _ _ _ _ Hhead (below_mono _ _ _ Hle Ht) (below_ss_mono _ _ _ Hle Hs) Eu) as Hs'.
      assert (forall w2 R2, ctr <= next_id w2 ->
                cclauses kb bf f t s key (idx + 1) n w2 k = Ok R2 -> res_ok (next_id w2) R2) as Hrest.
      { intros w2 R2 Hn2 H2. assert (next_id w <= next_id w2) as Hn by lia.
        exact (IHc _ _ _ _ _ _ _ _ (below_mono _ _ _ Hn Ht) (below_ss_mono _ _ _ Hn Hs) (kont_ok_mono _ _ _ Hn Hk) H2). }
      apply (res_ok_mono _ ctr _ Hle). destruct (is_gnil (r_body r)).
      + refine (res_ok_then _ _ _ _ _ Hrest (or_introl H)).
        intros x E1. exact (Hk s' (w_set_id w ctr) false _ Hs' Hle E1).
      + refine (res_ok_then _ _ _ _ _ Hrest (or_intror H)).
        intros x E1. refine (IHs _ _ (w_set_id w ctr) _ _ Hbody Hs' _ E1).
        apply kont_ok_kbump. cbn [next_id w_set_id]. eapply kont_ok_mono; [exact Hle|exact Hk].
  Qed.

  Theorem cclauses_fresh fuel t s key idx n w k answers w' sg :
    below (next_id w) t -> below_ss (next_id w) s ->
    (forall s1 w1 c a wE sg1, below_ss (next_id w1) s1 -> next_id w <= next_id w1 ->
       k s1 w1 c = Ok (a, wE, sg1) -> next_id w1 <= next_id wE /\ Forall (below_ss (next_id wE)) a) ->
    cclauses kb bf fuel t s key idx n w k = Ok (answers, w', sg) ->
    next_id w <= next_id w' /\ Forall (below_ss (next_id w')) answers.
  Proof.
    intros Ht Hs Hk H.
    refine (proj2 (fresh_all fuel) t s key idx n w k (answers, w', sg) Ht Hs _ H).
    intros s1 w1 c [[a wE] sg1] Hs1 Hn1 H1. exact (Hk _ _ _ _ _ _ Hs1 Hn1 H1).
  Qed.

  Corollary canswers_fresh fuel q w answers w' :
    below (next_id w) q -> canswers kb bf fuel q w = Ok (answers, w') ->
    Forall (below_ss (next_id w')) answers /\ next_id w <= next_id w'.
  Proof.
    intros Hq H. unfold canswers in H.
    destruct (csolve kb bf fuel (GCall q) [] w (fun s w' _ => Ok ([s], w', Go))) as [[[a w1] sg]| |] eqn:E;
      cbn [bind] in H; try discriminate.
    injection H as <- <-.
    destruct (proj1 (fresh_all fuel) _ _ _ _ _ (proj2 (below_goal_call _ _) Hq) (below_ss_nil _) (kont_ok_one _ Go) E)
      as [H1 H2].
    split; assumption.
  Qed.
End Search.

(* a query built by make_query / api_make_query satisfies the hypothesis of canswers_fresh *)
Lemma make_query_below ts g ctr : make_query ts = Ok (g, ctr) -> exists q, g = GCall q /\ below ctr q.
Proof.
  intro H. destruct (make_query_spec _ _ _ H) as (ts' & -> & _ & _ & Hf).
  eexists. split; [reflexivity|]. intros id name Hin. specialize (Hf id name Hin). lia.
Qed.

Lemma base_node_cden kb bf q w fs a wR nd w1 :
  canswers kb bf fs q w = Ok (a, wR) -> make_base_node kb (GCall q) w = Ok (nd, w1) ->
  ncutb nd = true /\ exists fs' g, (1 <= fs')%nat /\ cden kb bf fs' nd w1 collect = Ok (a, wR, g).
Proof.
  intros Ha Hm. destruct (query_node_cden _ _ _ _ _ _ _ _ Ha Hm) as (Hfs & Hn & g & HD). eauto.
Qed.

(* asking the query's node until it has no answer, each request with whatever fuel (Proofs/SolveQuiet.v
   `Drain`: what the loop of solve_all comes to while no stop is pending - no flag read, nothing formatted) *)
Theorem engine_drain_fresh kb bf q w fs R nd w1 answers wE :
  below (next_id w) q ->
  canswers kb bf fs q w = Ok R ->
  make_base_node kb (GCall q) w = Ok (nd, w1) ->
  Drain kb bf nd w1 answers wE ->
  Forall (below_ss (next_id wE)) answers /\ next_id w <= next_id wE.
Proof.
  intros Hq Ha Hm Hd. destruct R as [a wR].
  destruct (base_node_cden _ _ _ _ _ _ _ _ _ Ha Hm) as (Hn & fs' & g & Hfs & HD).
  pose proof (drain_is_cden _ _ _ _ _ _ Hd fs' a wR g Hn Hfs HD) as Heq. injection Heq as <- <-.
  exact (canswers_fresh _ _ _ _ _ _ _ Hq Ha).
Qed.

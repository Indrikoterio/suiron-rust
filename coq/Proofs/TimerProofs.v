(* C23, the timer protocol: for EVERY interleaving of the main thread's operations with the
   firings of any timers ever started (late, cancelled, superseded), the stop-query flag of a
   query is raised only by stop_query() or by the time-out of THAT query's own timer while the
   query is still running; it then stays raised until the next query starts. *)
From Coq Require Import List NArith Bool Lia.
From Suiron Require Import Model.Timer.
Import ListNotations.
Open Scope N_scope.

Lemma tstatus_eqb_eq a b : tstatus_eqb a b = true <-> a = b.
Proof. destruct a, b; simpl; split; intro H; try reflexivity; discriminate. Qed.
Lemma tstate_eqb_eq a b : tstate_eqb a b = true <-> a = b.
Proof.
  destruct a as [g1 s1], b as [g2 s2]. unfold tstate_eqb. cbn [tgen tstat]. rewrite andb_true_iff, N.eqb_eq, tstatus_eqb_eq.
  split; [intros [-> ->]; reflexivity|intro H; inversion H; auto].
Qed.

(* invariant of reachable states: the remembered states are Running states of pairwise
   different queries, none newer than the current one *)
Definition tinv (s : tsys) : Prop :=
  Forall (fun m => tgen m <= tgen (cur s) /\ tstat m = Running) (started s) /\
  NoDup (map tgen (started s)).

Lemma nodup_snoc {A} (l : list A) x : NoDup l -> ~ In x l -> NoDup (l ++ [x]).
Proof. intros Hn Hx. apply (NoDup_Add (Add_app x l [])). rewrite app_nil_r. now split. Qed.

Lemma tinv_nth s k m : tinv s -> nth_error (started s) k = Some m ->
  tgen m <= tgen (cur s) /\ tstat m = Running.
Proof. intros [Hf _] E. rewrite Forall_forall in Hf. apply Hf. eapply nth_error_In; eauto. Qed.

(* a time-out is a compare-and-swap: it stops the query if the timer's remembered state IS the
   current state, and does nothing otherwise *)
Lemma tstep_fire s k :
  (nth_error (started s) k = Some (cur s) /\
   tstep s (TFire k) = mkS (mkT (tgen (cur s)) Stopped) (started s)) \/
  (nth_error (started s) k <> Some (cur s) /\ tstep s (TFire k) = s).
Proof.
  cbn [tstep]. destruct (nth_error (started s) k) as [m|]; [|right; split; [discriminate|reflexivity]].
  destruct (tstate_eqb (cur s) m) eqn:E.
  - apply tstate_eqb_eq in E as <-. now left.
  - right. split; [|reflexivity]. intro H. inversion H; subst.
    rewrite (proj2 (tstate_eqb_eq _ _) eq_refl) in E. discriminate.
Qed.

Lemma tinv_init : tinv tinit.
Proof. split; constructor. Qed.

Lemma tinv_step s o : tinv s -> tinv (tstep s o).
Proof.
  intros [Hf Hn]. destruct o; cbn [tstep].
  - (* start *)
    split; cbn [cur started next_query tgen tstat].
    + apply Forall_app. split.
      * eapply Forall_impl; [|exact Hf]. cbn. intros m [H1 H2]. split; [lia|exact H2].
      * constructor; [cbn [next_query tgen tstat]; split; [lia|reflexivity]|constructor].
    + rewrite map_app. cbn [map tgen]. apply nodup_snoc; [exact Hn|].
      intro Hin. apply in_map_iff in Hin as (m & Hm & Hi). rewrite Forall_forall in Hf.
      destruct (Hf m Hi) as [Hle _]. cbn [next_query tgen] in Hm. lia.
  - split; cbn [cur started next_query tgen]; [|exact Hn].
    eapply Forall_impl; [|exact Hf]. cbn. intros m [H1 H2]. split; [lia|exact H2].
  - destruct (tstep_fire s k) as [[_ E]|[_ E]]; cbn [tstep] in E; rewrite E; split; assumption.
  - destruct (tstat (cur s)); split; assumption.
  - split; assumption.
  - split; assumption.
Qed.

Theorem tinv_reachable ops : tinv (trun ops).
Proof.
  unfold trun. assert (forall s, tinv s -> tinv (fold_left tstep ops s)) as H.
  { induction ops as [|o r IH]; intros s Hs; [exact Hs|]. cbn [fold_left]. apply IH. now apply tinv_step. }
  apply H, tinv_init.
Qed.

(* a time-out changes the state only if its own query is the current one and still running *)
Theorem fire_needs_current s k : tinv s -> tstep s (TFire k) <> s ->
  nth_error (started s) k = Some (cur s) /\ tstat (cur s) = Running.
Proof.
  intros Hi H. destruct (tstep_fire s k) as [[E _]|[_ E]]; [|contradiction].
  split; [exact E|]. apply (tinv_nth _ _ _ Hi E).
Qed.

(* the timer of an earlier query never changes anything, whenever it fires *)
Theorem stale_timer_is_ignored s k m :
  nth_error (started s) k = Some m -> tgen m < tgen (cur s) -> tstep s (TFire k) = s.
Proof.
  intros E Hlt. destruct (tstep_fire s k) as [[E' _]|[_ ->]]; [|reflexivity].
  rewrite E in E'. inversion E'; subst. lia.
Qed.

(* after cancel_timer (or once the query is stopped) no time-out changes anything *)
Theorem cancelled_timer_is_ignored s k : tinv s -> tstat (cur s) <> Running -> tstep s (TFire k) = s.
Proof.
  intros Hi Hs. destruct (tstep_fire s k) as [[E _]|[_ ->]]; [|reflexivity].
  now destruct (tinv_nth _ _ _ Hi E).
Qed.

(* the flag goes up only through stop_query() or the time-out of the current query's own timer *)
Theorem flag_raised_only_by s o : tinv s -> flag s = false -> flag (tstep s o) = true ->
  o = TStop \/ exists k, o = TFire k /\ nth_error (started s) k = Some (cur s) /\ tstat (cur s) = Running.
Proof.
  intros Hi H0 H1. destruct o; try discriminate H1; [| |now left|cbn [tstep] in H1; congruence].
  - right. exists k. split; [reflexivity|]. apply fire_needs_current; [exact Hi|].
    intro Heq. rewrite Heq in H1. congruence.
  - cbn [tstep] in H1. unfold flag in *. destruct (tstat (cur s)) eqn:Es; cbn in H1; congruence.
Qed.

(* ... and stays up until the next query starts *)
Theorem flag_stays s o : flag s = true -> o <> TStart -> o <> TStartQuery -> flag (tstep s o) = true.
Proof.
  intros H0 Hs Hq. destruct o; try contradiction; try reflexivity.
  - destruct (tstep_fire s k) as [[_ ->]|[_ ->]]; [reflexivity|exact H0].
  - unfold flag in *. apply tstatus_eqb_eq in H0. cbn [tstep]. now rewrite H0, H0.
  - exact H0.
Qed.

(* at most one timer can stop a given query *)
Theorem the_timer_is_unique ops k1 k2 m1 m2 :
  nth_error (started (trun ops)) k1 = Some m1 -> nth_error (started (trun ops)) k2 = Some m2 ->
  tgen m1 = tgen m2 -> k1 = k2.
Proof.
  intros E1 E2 Hg. destruct (tinv_reachable ops) as [_ Hn].
  apply (map_nth_error tgen) in E1, E2. rewrite Hg in E1.
  eapply NoDup_nth_error; eauto; [apply nth_error_Some|]; congruence.
Qed.

(* the protocol before the repair is refuted: timer 0 passes its check, its query is
   cancelled, the next query starts, timer 0 stores: query 2 is stopped although its own
   timer (index 1) never fired and stop_query was never called *)
Example old_protocol_refuted :
  oflag (fold_left ostep [OStart; OFireCheck 0; OCancel; OStart; OFireStore 0] oinit) = true.
Proof. reflexivity. Qed.

(* the same schedule in the repaired protocol: nothing happens *)
Example new_protocol_same_schedule :
  flag (trun [TStart; TCancel; TStart; TFire 0]) = false.
Proof. reflexivity. Qed.

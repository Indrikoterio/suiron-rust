(* C19, goal and rule level: for canonical goals g, generate_goal (show_goal g) = g, and for
   canonical rules r, parse_rule (show_rule r) = r, for any leaf parser that inverts Display on
   the leaves.  For a canonical goal g with text `text g`:
     scan     the stream tokenizer run on `text g` emits the tokens `pre g w0` and ends with
              the pending slice `lastw g w0`                                   (scan_goal)
     gts      group_tokens turns pre ++ [last] into the tree Branch Group (rawseq g)  (groups_goal)
     passes   the And pass and the Or pass turn it into Branch Group [ptree g]  (passes_goal)
     tttg     token_tree_to_goal (ptree g) = g                                 (tttg_ptree)
   And and Or are one case throughout (canonical_goal_rec). *)
From Coq Require Import Lia.
From Suiron Require Import Model.Tokenizer Model.ParseRule Model.ShowGoal.
From Suiron Require Import Proofs.TokenizerStream Proofs.TokenizerProofs.
Open Scope N_scope.

Section goal_ind'.
  Variable P : goal -> Prop.
  Hypothesis HOp : forall k gs, Forall P gs -> P (GOp k gs).
  Hypothesis HBip : forall f ts, P (GBip f ts).
  Hypothesis HCall : forall t, P (GCall t).
  Hypothesis HNil : P GNil.
  Fixpoint goal_ind' (g : goal) : P g :=
    match g with
    | GOp k gs =>
        HOp k gs ((fix go (l : list goal) : Forall P l :=
                     match l with
                     | [] => Forall_nil P
                     | x :: l' => Forall_cons x (goal_ind' x) (go l')
                     end) gs)
    | GBip f ts => HBip f ts
    | GCall t => HCall t
    | GNil => HNil
    end.
End goal_ind'.

Inductive reach : scfg -> scfg -> Prop :=
| reach_refl cf : reach cf cf
| reach_step cf cf1 cf2 : sstep_cfg cf = Some (POk cf1) -> reach cf1 cf2 -> reach cf cf2.

Lemma reach_trans a b c : reach a b -> reach b c -> reach a c.
Proof. induction 1; intros H2; [exact H2|]. econstructor; eauto. Qed.

Lemma reach_one a b : sstep_cfg a = Some (POk b) -> reach a b.
Proof. intros H. econstructor; [exact H|constructor]. Qed.

Lemma reach_sloop a b :
  reach a b -> s_rest b = [] ->
  forall fuel, (length (s_rest a) < fuel)%nat -> sloop fuel a = Ok (POk b).
Proof.
  induction 1 as [cf|cf cf1 cf2 Hs Hr IH]; intros Hend fuel Hf.
  - destruct fuel; [lia|]. simpl. unfold sstep_cfg. now rewrite Hend.
  - destruct fuel; [lia|]. simpl. rewrite Hs. apply IH; [exact Hend|].
    unfold sstep_cfg in Hs. destruct (s_rest cf) as [|c rest'] eqn:E; [discriminate|].
    inversion Hs as [Hs']. apply sstep_shrinks in Hs' as [Hs' _]. simpl in Hf. lia.
Qed.

(* the scanner is in its ground state: not inside a complex term or a list *)
Definition ground (stk : parse_stack) : Prop :=
  tt_eqb (peek stk) TTComplex = false /\ tt_eqb (peek stk) TTLinkedList = false.

Lemma ground_group stk : ground (TTGroup :: stk).
Proof. split; reflexivity. Qed.

(* The previous character when the scan reaches a goal text.  Exactly three are possible: `#`, the
   initial value of `previous` in tokenize (the text is first); the blank of the separator `, ` / `; `
   (Display prints one after every separator); `(`, when the text is the first operand of a group. *)
Definition okprev (p : N) : Prop := p = ch_hash \/ p = 32 \/ p = ch_lparen.

Lemma okprev_facts p : okprev p -> (p =? ch_backslash) = false /\ letter_number_hyphen p = false.
Proof. intros [->|[->| ->]]; split; reflexivity. Qed.

Definition tok_comma : token := Leaf TTComma [ch_comma].
Definition tok_semi : token := Leaf TTSemicolon [ch_semicolon].
Definition tok_lp : token := Leaf TTLParen [ch_lparen].
Definition tok_rp : token := Leaf TTRParen [ch_rparen].

Lemma step_sep (sep : N) rest w p stk toks :
  (sep = ch_comma \/ sep = ch_semicolon) ->
  (p =? ch_backslash) = false -> ground stk ->
  sstep_cfg (mkS (sep :: rest) w p stk toks) =
  Some (POk (mkS rest [] sep stk
                 (toks ++ [make_leaf_token w] ++ [if sep =? ch_comma then tok_comma else tok_semi]))).
Proof.
  intros Hsep Hp [G1 G2]. unfold sstep_cfg, sstep; cbn [s_rest s_w s_prev s_stk s_toks].
  unfold no_esc. rewrite Hp, G1, G2. destruct Hsep as [->| ->]; reflexivity.
Qed.

Lemma step_space rest w p stk toks :
  ground stk ->
  sstep_cfg (mkS (32 :: rest) w p stk toks) = Some (POk (mkS rest (w ++ [32]) 32 stk toks)).
Proof.
  intros [G1 G2]. unfold sstep_cfg, sstep; cbn [s_rest s_w s_prev s_stk s_toks].
  unfold no_esc. rewrite G1, G2. destruct (p =? ch_backslash); reflexivity.
Qed.

Lemma step_lparen rest w p stk toks :
  okprev p ->
  sstep_cfg (mkS (ch_lparen :: rest) w p stk toks) =
  Some (POk (mkS rest [] ch_lparen (TTGroup :: stk) (toks ++ [tok_lp]))).
Proof.
  intros Hp. destruct (okprev_facts p Hp) as [H1 H2].
  unfold sstep_cfg, sstep; cbn [s_rest s_w s_prev s_stk s_toks].
  unfold no_esc. rewrite H1, H2. reflexivity.
Qed.

Lemma step_rparen rest w p stk toks :
  (p =? ch_backslash) = false ->
  sstep_cfg (mkS (ch_rparen :: rest) w p (TTGroup :: stk) toks) =
  Some (POk (mkS rest (w ++ [ch_rparen]) ch_rparen stk
                 (toks ++ [make_leaf_token w] ++ [tok_rp]))).
Proof.
  intros Hp. unfold sstep_cfg, sstep; cbn [s_rest s_w s_prev s_stk s_toks].
  unfold no_esc. rewrite Hp. reflexivity.
Qed.

(* A leaf text is neutral for the tokenizer: it is not empty, a slice made of white space
   and the text becomes the Subgoal token of the text, and a scan that starts in the ground
   state passes over the text without emitting a token or changing the parse stack,
   whatever follows it; the character it ends with does not escape the next one. *)
Record neutral (t : str) : Prop := mkNeutral {
  neu_ne : t <> [];
  neu_tok : forall w0, forallb tk_is_whitespace w0 = true ->
                       make_leaf_token (w0 ++ t) = Leaf TTSubgoal t;
  neu_scan : forall p0 rest w stk toks, okprev p0 -> ground stk ->
    exists pf, reach (mkS (t ++ rest) w p0 stk toks) (mkS rest (w ++ t) pf stk toks) /\
               (pf =? ch_backslash) = false
}.

Definition is_leaf_goal (g : goal) : bool :=
  match g with
  | GOp OAnd _ | GOp OOr _ | GNil => false
  | _ => true
  end.

(* big-step presentation of group_tokens_to (the stream version gts) *)

Inductive GTS : list token -> list token -> token * list token -> Prop :=
| GTS_nil acc : GTS [] acc (Branch TTGroup acc, [])
| GTS_rp tok rest acc :
    tt_eqb (get_type tok) TTLParen = false -> tt_eqb (get_type tok) TTRParen = true ->
    GTS (tok :: rest) acc (Branch TTGroup acc, tok :: rest)
| GTS_lp tok rest acc t rem r :
    tt_eqb (get_type tok) TTLParen = true ->
    GTS rest [] (t, rem) -> GTS (skipn 2 rem) (acc ++ [t]) r ->
    GTS (tok :: rest) acc r
| GTS_other tok rest acc r :
    tt_eqb (get_type tok) TTLParen = false -> tt_eqb (get_type tok) TTRParen = false ->
    GTS rest (acc ++ [tok]) r ->
    GTS (tok :: rest) acc r.

Lemma GTS_rem rest acc r : GTS rest acc r -> (length (snd r) <= length rest)%nat.
Proof.
  induction 1; cbn [snd length] in *; try lia.
  rewrite skipn_length in *. lia.
Qed.

Lemma GTS_gts rest acc r :
  GTS rest acc r -> forall fuel, (length rest < fuel)%nat -> gts fuel rest acc = Ok r.
Proof.
  induction 1 as [acc|tok rest acc H1 H2|tok rest acc t rem r H1 Hin IHin Hout IHout
                  |tok rest acc r H1 H2 H IH]; intros fuel Hf;
    (destruct fuel; [lia|]); cbn [gts length] in *.
  - reflexivity.
  - now rewrite H1, H2.
  - rewrite H1. rewrite IHin by lia. cbn [bind].
    apply IHout. apply GTS_rem in Hin. cbn [snd] in Hin. rewrite skipn_length. lia.
  - rewrite H1, H2. apply IH. lia.
Qed.

Section Roundtrip.
  Variable ps : str -> res (presult goal).

  (* what is asked of a leaf goal: its text is neutral and parses back to it *)
  Definition leaf_ok (l : goal) : Prop :=
    is_leaf_goal l = true /\
    exists t, show_goal l = Ok t /\ neutral t /\ ps t = Ok (POk l).

  Inductive canonical_goal : goal -> Prop :=
  | can_leaf l : leaf_ok l -> canonical_goal l
  | can_and gs : (2 <= length gs)%nat -> Forall canonical_goal gs -> canonical_goal (GOp OAnd gs)
  | can_or gs : (2 <= length gs)%nat -> Forall canonical_goal gs -> canonical_goal (GOp OOr gs).

  Lemma canonical_inv g : canonical_goal g ->
    match g with
    | GOp OAnd gs | GOp OOr gs => (2 <= length gs)%nat /\ Forall canonical_goal gs
    | _ => leaf_ok g
    end.
  Proof.
    intros H. inversion H as [l Hl|gs Hn Hf|gs Hn Hf]; subst; auto.
    destruct Hl as [Hl Hl']. destruct g as [[] gs| | |]; try discriminate; split; auto.
  Qed.

  Definition leaf_text (l : goal) : str :=
    match show_goal l with Ok t => t | _ => [] end.

  Fixpoint text (g : goal) : str :=
    match g with
    | GOp OAnd gs => format_list (map (fun x => operand_text true x (text x)) gs) sep_comma
    | GOp OOr gs => format_list (map (fun x => operand_text false x (text x)) gs) sep_semicolon
    | l => leaf_text l
    end.

  (* And and Or are treated together: ga = true for And, false for Or (the flag that
     format_operands passes to needs_group) *)
  Definition and_or (ga : bool) : opkind := if ga then OAnd else OOr.
  Definition sep_str (ga : bool) : str := if ga then sep_comma else sep_semicolon.
  Definition sep_tok (ga : bool) : token := if ga then tok_comma else tok_semi.
  Definition item_text (ga : bool) (x : goal) : str := operand_text ga x (text x).

  (* pending slice after the scan of the items of an And / Or *)
  Definition lastw_items (lw : goal -> str -> str) (ga : bool) : list goal -> str -> str :=
    fix items (l : list goal) (w0 : str) {struct l} : str :=
      match l with
      | [] => w0
      | x :: r =>
          match r with
          | [] => if needs_group ga x then lw x [] ++ [ch_rparen] else lw x w0
          | _ => items r [32]
          end
      end.

  Fixpoint lastw (g : goal) (w0 : str) {struct g} : str :=
    match g with
    | GOp OAnd gs => lastw_items (fun x w => lastw x w) true gs w0
    | GOp OOr gs => lastw_items (fun x w => lastw x w) false gs w0
    | l => w0 ++ leaf_text l
    end.

  Definition lastw_item (ga : bool) (x : goal) (w0 : str) : str :=
    if needs_group ga x then lastw x [] ++ [ch_rparen] else lastw x w0.

  (* tokens emitted during the scan of one item, given those of the goal inside *)
  Definition pre_item_gen (pr : goal -> str -> list token) (ga : bool) (x : goal) (w0 : str)
    : list token :=
    if needs_group ga x
    then [tok_lp] ++ pr x [] ++ [make_leaf_token (lastw x [])] ++ [tok_rp]
    else pr x w0.

  Definition pre_items (pr : goal -> str -> list token) (ga : bool)
    : list goal -> str -> list token :=
    fix items (l : list goal) (w0 : str) {struct l} : list token :=
      match l with
      | [] => []
      | x :: r =>
          match r with
          | [] => pre_item_gen pr ga x w0
          | _ => pre_item_gen pr ga x w0 ++ [make_leaf_token (lastw_item ga x w0)] ++ [sep_tok ga]
                 ++ items r [32]
          end
      end.

  Fixpoint pre (g : goal) (w0 : str) {struct g} : list token :=
    match g with
    | GOp OAnd gs => pre_items (fun x w => pre x w) true gs w0
    | GOp OOr gs => pre_items (fun x w => pre x w) false gs w0
    | _ => []
    end.

  Definition pre_item := pre_item_gen pre.

  (* the token tree after group_tokens, and after the And pass and the Or pass *)
  Definition join_toks (sep : token) : list (list token) -> list token :=
    fix j (l : list (list token)) : list token :=
      match l with
      | [] => []
      | x :: r => match r with [] => x | _ => x ++ [sep] ++ j r end
      end.

  Fixpoint rawseq (g : goal) : list token :=
    match g with
    | GOp OAnd gs =>
        join_toks tok_comma
          (map (fun x => if needs_group true x then [Branch TTGroup (rawseq x)] else rawseq x) gs)
    | GOp OOr gs =>
        join_toks tok_semi
          (map (fun x => if needs_group false x then [Branch TTGroup (rawseq x)] else rawseq x) gs)
    | l => [Leaf TTSubgoal (leaf_text l)]
    end.

  Definition rawitem (ga : bool) (x : goal) : list token :=
    if needs_group ga x then [Branch TTGroup (rawseq x)] else rawseq x.

  Fixpoint ptree (g : goal) : token :=
    match g with
    | GOp OAnd gs =>
        Branch TTAnd (map (fun x => if needs_group true x then Branch TTGroup [ptree x] else ptree x) gs)
    | GOp OOr gs =>
        Branch TTOr (map (fun x => if needs_group false x then Branch TTGroup [ptree x] else ptree x) gs)
    | l => Leaf TTSubgoal (leaf_text l)
    end.

  Definition pitem (ga : bool) (x : goal) : token :=
    if needs_group ga x then Branch TTGroup [ptree x] else ptree x.

  Lemma text_op ga gs :
    text (GOp (and_or ga) gs) = format_list (map (item_text ga) gs) (sep_str ga).
  Proof. now destruct ga. Qed.

  Lemma lastw_op ga gs : lastw (GOp (and_or ga) gs) = lastw_items lastw ga gs.
  Proof. now destruct ga. Qed.

  Lemma pre_op ga gs : pre (GOp (and_or ga) gs) = pre_items pre ga gs.
  Proof. now destruct ga. Qed.

  Lemma rawseq_op ga gs :
    rawseq (GOp (and_or ga) gs) = join_toks (sep_tok ga) (map (rawitem ga) gs).
  Proof. now destruct ga. Qed.

  Lemma ptree_op ga gs :
    ptree (GOp (and_or ga) gs) = Branch (if ga then TTAnd else TTOr) (map (pitem ga) gs).
  Proof. now destruct ga. Qed.

  Lemma leaf_forms l t : is_leaf_goal l = true -> show_goal l = Ok t ->
    text l = t /\ (forall w0, lastw l w0 = w0 ++ t) /\ (forall w0, pre l w0 = []) /\
    rawseq l = [Leaf TTSubgoal t] /\ ptree l = Leaf TTSubgoal t.
  Proof.
    intros Hl Hs. assert (Et : leaf_text l = t) by (unfold leaf_text; now rewrite Hs).
    rewrite <- Et. destruct l as [[] gs| | |]; try discriminate; repeat split.
  Qed.

  Lemma canonical_goal_rec (P : goal -> Prop) :
    (forall l, leaf_ok l -> P l) ->
    (forall ga gs, (2 <= length gs)%nat -> Forall canonical_goal gs -> Forall P gs ->
                   P (GOp (and_or ga) gs)) ->
    forall g, canonical_goal g -> P g.
  Proof.
    intros Hleaf Hop.
    induction g as [k gs IH| | |] using goal_ind'; intros Hc;
      pose proof (canonical_inv _ Hc) as Hi; try (now apply Hleaf).
    assert (Hgs : forall ga, (2 <= length gs)%nat /\ Forall canonical_goal gs -> P (GOp (and_or ga) gs)).
    { intros ga [Hn Hf]. apply Hop; [exact Hn|exact Hf|].
      rewrite Forall_forall in *. intros x Hx. apply IH; auto. }
    destruct k; try (now apply Hleaf); [apply (Hgs true Hi)|apply (Hgs false Hi)].
  Qed.

  Lemma two_ne {A} (l : list A) : (2 <= length l)%nat -> l <> [].
  Proof. destruct l; [simpl; lia|discriminate]. Qed.

  Lemma format_list_one s sep : format_list [s] sep = s.
  Proof. unfold format_list. now rewrite app_nil_r. Qed.

  Lemma format_list_cons s1 s2 l sep :
    format_list (s1 :: s2 :: l) sep = s1 ++ sep ++ format_list (s2 :: l) sep.
  Proof. unfold format_list. now rewrite <- app_assoc. Qed.

  Lemma lastw_items_cons lw ga x y r w0 :
    lastw_items lw ga (x :: y :: r) w0 = lastw_items lw ga (y :: r) [32].
  Proof. reflexivity. Qed.

  Lemma pre_items_cons ga x y r w0 :
    pre_items pre ga (x :: y :: r) w0 =
    pre_item ga x w0 ++ [make_leaf_token (lastw_item ga x w0)] ++ [sep_tok ga] ++
    pre_items pre ga (y :: r) [32].
  Proof. reflexivity. Qed.

  Lemma join_toks_cons sep x y r :
    join_toks sep (x :: y :: r) = x ++ [sep] ++ join_toks sep (y :: r).
  Proof. reflexivity. Qed.

  Lemma join_toks_map_cons {A} sep (f : A -> list token) x y r :
    join_toks sep (map f (x :: y :: r)) = f x ++ [sep] ++ join_toks sep (map f (y :: r)).
  Proof. reflexivity. Qed.

  (* a scan that starts in the ground state with a pending slice w0 of white space crosses T,
     emits the tokens E w0 and ends with the pending slice W w0, whatever follows T *)
  Definition scans_as (T : str) (W : str -> str) (E : str -> list token) : Prop :=
    forall w0 p0 stk toks rest,
      forallb tk_is_whitespace w0 = true -> okprev p0 -> ground stk ->
      exists pf, reach (mkS (T ++ rest) w0 p0 stk toks) (mkS rest (W w0) pf stk (toks ++ E w0)) /\
                 (pf =? ch_backslash) = false.

  Definition scans (g : goal) : Prop := scans_as (text g) (lastw g) (pre g).

  Lemma scan_item ga x :
    scans x -> scans_as (item_text ga x) (lastw_item ga x) (pre_item ga x).
  Proof.
    intros Hx w0 p0 stk toks rest Hw Hp Hg.
    unfold item_text, operand_text, lastw_item, pre_item, pre_item_gen.
    destruct (needs_group ga x).
    - destruct (Hx [] ch_lparen (TTGroup :: stk) (toks ++ [tok_lp]) (ch_rparen :: rest))
        as (pf & Hr & Hpf); [reflexivity | right; now right | apply ground_group |].
      exists ch_rparen. split; [|reflexivity].
      eapply reach_step.
      { change (([40] ++ text x ++ [41]) ++ rest) with (ch_lparen :: (text x ++ [41]) ++ rest).
        apply step_lparen. exact Hp. }
      rewrite <- app_assoc. eapply reach_trans; [exact Hr|].
      eapply reach_step; [apply step_rparen; exact Hpf|].
      rewrite <- !app_assoc. apply reach_refl.
    - apply Hx; assumption.
  Qed.

  Lemma scan_items ga : forall gs, gs <> [] -> Forall scans gs ->
    scans_as (format_list (map (item_text ga) gs) (sep_str ga)) (lastw_items lastw ga gs)
             (pre_items pre ga gs).
  Proof.
    induction gs as [|x gs IH]; intros Hne HF w0 p0 stk toks rest Hw Hp Hg; [congruence|].
    inversion HF as [|? ? Hx HF']; subst.
    destruct gs as [|y gs].
    - cbn [map]. rewrite format_list_one. apply (scan_item ga x Hx); assumption.
    - cbn [map]. rewrite format_list_cons. rewrite <- !app_assoc.
      destruct (scan_item ga x Hx w0 p0 stk toks
                  (sep_str ga ++ format_list (map (item_text ga) (y :: gs)) (sep_str ga) ++ rest)
                  Hw Hp Hg) as (pf1 & Hr1 & Hpf1).
      specialize (IH ltac:(discriminate) HF' [32] 32 stk
                     (toks ++ pre_item ga x w0 ++ [make_leaf_token (lastw_item ga x w0)] ++ [sep_tok ga])
                     rest eq_refl ltac:(right; now left) Hg).
      destruct IH as (pf & Hr & Hpf). exists pf. split; [|exact Hpf].
      eapply reach_trans; [exact Hr1|].
      (* the separator and the blank after it *)
      assert (Hsep : exists sc, sep_str ga = [sc; 32] /\ (sc = ch_comma \/ sc = ch_semicolon) /\
                                sep_tok ga = (if sc =? ch_comma then tok_comma else tok_semi)).
      { destruct ga; [exists ch_comma | exists ch_semicolon]; repeat split; auto. }
      destruct Hsep as (sc & Es & Hsc & Et). rewrite Es in Hr |- *.
      eapply reach_step; [apply (step_sep sc); [exact Hsc | exact Hpf1 | exact Hg]|].
      eapply reach_step; [apply step_space; exact Hg|].
      change ([] ++ [32]) with [32]. rewrite <- Et.
      rewrite lastw_items_cons, pre_items_cons.
      rewrite <- !app_assoc. rewrite <- !app_assoc in Hr. exact Hr.
  Qed.

  Theorem scan_goal : forall g, canonical_goal g -> scans g.
  Proof.
    apply canonical_goal_rec.
    - intros l [Hl (t & Hs & Hn & _)] w0 p0 stk toks rest Hw Hp Hg.
      destruct (leaf_forms l t Hl Hs) as (-> & -> & -> & _). rewrite app_nil_r.
      now apply (neu_scan t Hn).
    - intros ga gs Hn _ IH. unfold scans. rewrite text_op, lastw_op, pre_op.
      apply scan_items; [now apply two_ne|exact IH].
  Qed.

  (* the tokens E w0 followed by the flushed slice W w0 are grouped as the tokens R *)
  Definition groups_as (E : str -> list token) (W : str -> str) (R : list token) : Prop :=
    forall w0 rest acc r, forallb tk_is_whitespace w0 = true ->
      GTS rest (acc ++ R) r -> GTS (E w0 ++ make_leaf_token (W w0) :: rest) acc r.

  Definition groups (g : goal) : Prop := groups_as (pre g) (lastw g) (rawseq g).

  Lemma groups_item ga x :
    groups x -> groups_as (pre_item ga x) (lastw_item ga x) (rawitem ga x).
  Proof.
    intros Hx w0 rest acc r Hw H.
    unfold pre_item, pre_item_gen, lastw_item, rawitem in *.
    destruct (needs_group ga x).
    - rewrite <- !app_assoc. cbn [app].
      eapply GTS_lp; [reflexivity| |].
      + apply (Hx [] (tok_rp :: make_leaf_token (lastw x [] ++ [ch_rparen]) :: rest) []
                  (Branch TTGroup (rawseq x), tok_rp :: make_leaf_token (lastw x [] ++ [ch_rparen]) :: rest)
                  eq_refl).
        cbn [app]. apply GTS_rp; reflexivity.
      + exact H.
    - now apply Hx.
  Qed.

  Lemma groups_items ga : forall gs, gs <> [] -> Forall groups gs ->
    groups_as (pre_items pre ga gs) (lastw_items lastw ga gs)
              (join_toks (sep_tok ga) (map (rawitem ga) gs)).
  Proof.
    induction gs as [|x gs IH]; intros Hne HF w0 rest acc r Hw H; [congruence|].
    inversion HF as [|? ? Hx HF']; subst.
    destruct gs as [|y gs].
    - now apply (groups_item ga x Hx).
    - rewrite lastw_items_cons, pre_items_cons.
      cbn [map] in H. rewrite join_toks_cons in H. rewrite <- !app_assoc. cbn [app].
      apply (groups_item ga x Hx w0 _ acc r Hw).
      apply GTS_other; [now destruct ga|now destruct ga|].
      rewrite <- app_assoc.
      apply IH; [discriminate|exact HF'|reflexivity|].
      rewrite <- !app_assoc. exact H.
  Qed.

  Theorem groups_goal : forall g, canonical_goal g -> groups g.
  Proof.
    apply canonical_goal_rec.
    - intros l [Hl (t & Hs & Hn & _)] w0 rest acc r Hw H.
      destruct (leaf_forms l t Hl Hs) as (_ & El & Ep & Er & _).
      rewrite El, Ep, (neu_tok t Hn w0 Hw). rewrite Er in H.
      apply GTS_other; [reflexivity|reflexivity|exact H].
    - intros ga gs Hn _ IH. unfold groups. rewrite pre_op, lastw_op, rawseq_op.
      apply groups_items; [now apply two_ne|exact IH].
  Qed.

  Definition passes_to_ptree (g : goal) : Prop :=
    exists m, group_and_tokens (Branch TTGroup (rawseq g)) = Ok (Branch TTGroup m) /\
              group_or_tokens (Branch TTGroup m) = Ok (Branch TTGroup [ptree g]).

  (* and_list `al` is flushed as the token f *)
  Definition flushes (al : list token) (f : token) : Prop :=
    al = [f] \/ ((2 <= length al)%nat /\ f = Branch TTAnd al).

  (* an operand of an Or that is not put in parentheses: the And pass running over rawseq g
     collects operands that are flushed as ptree g *)
  Definition andseq (g : goal) : Prop :=
    needs_group false g = false ->
    exists sl, flushes sl (ptree g) /\
      forall ty rest nc al,
        and_loop group_and_tokens ty (rawseq g ++ rest) nc al =
        and_loop group_and_tokens ty rest nc (al ++ sl).

  Lemma and_loop_semi gat ty rest nc al f :
    flushes al f ->
    and_loop gat ty (tok_semi :: rest) nc al = and_loop gat ty rest (nc ++ [f] ++ [tok_semi]) [].
  Proof.
    intros [->|[Hn ->]]; cbn [and_loop get_type tok_semi tt_eqb]; [reflexivity|].
    destruct al as [|a [|b al]]; simpl in Hn; try lia. reflexivity.
  Qed.

  Lemma and_loop_end gat ty nc al f :
    valid_branch ty = true -> flushes al f ->
    and_loop gat ty [] nc al = Ok (Branch ty (nc ++ [f])).
  Proof.
    intros Hv [->|[Hn ->]]; cbn [and_loop].
    - cbn. now apply make_branch_token_ok.
    - destruct al as [|a [|b al]]; simpl in Hn; try lia. cbn. now apply make_branch_token_ok.
  Qed.

  Lemma and_loop_group ty x rest nc al :
    passes_to_ptree x ->
    and_loop group_and_tokens ty (Branch TTGroup (rawseq x) :: rest) nc al =
    and_loop group_and_tokens ty rest nc (al ++ [Branch TTGroup [ptree x]]).
  Proof.
    intros (m & H1 & H2). cbn [and_loop get_type tt_eqb]. rewrite H1. cbn [bind]. rewrite H2. reflexivity.
  Qed.

  Lemma not_group_leaf ga x : canonical_goal x -> needs_group ga x = false ->
    leaf_ok x \/ (ga = false /\ exists gs, x = GOp OAnd gs).
  Proof.
    intros Hc Hn. pose proof (canonical_inv _ Hc) as Hi.
    destruct x as [[] gs| | |]; cbn [needs_group] in Hn; auto; try discriminate.
    right. destruct ga; [discriminate|]. eauto.
  Qed.

  Lemma leaf_tree l : leaf_ok l ->
    exists t, rawseq l = [Leaf TTSubgoal t] /\ ptree l = Leaf TTSubgoal t /\ ps t = Ok (POk l).
  Proof.
    intros [Hl (t & Hs & _ & Hp)]. exists t.
    now destruct (leaf_forms l t Hl Hs) as (_ & _ & _ & -> & ->).
  Qed.

  Lemma and_item x : canonical_goal x -> (needs_group true x = true -> passes_to_ptree x) ->
    forall ty rest nc al,
      and_loop group_and_tokens ty (rawitem true x ++ rest) nc al =
      and_loop group_and_tokens ty rest nc (al ++ [pitem true x]).
  Proof.
    intros Hc Hp ty rest nc al. unfold rawitem, pitem.
    destruct (needs_group true x) eqn:En.
    - cbn [app]. now apply and_loop_group, Hp.
    - destruct (not_group_leaf true x Hc En) as [Hl|[? _]]; [|discriminate].
      destruct (leaf_tree x Hl) as (t & -> & -> & _). reflexivity.
  Qed.

  Lemma and_items : forall gs, Forall canonical_goal gs ->
    Forall (fun x => needs_group true x = true -> passes_to_ptree x) gs ->
    forall ty rest nc al,
      and_loop group_and_tokens ty (join_toks tok_comma (map (rawitem true) gs) ++ rest) nc al =
      and_loop group_and_tokens ty rest nc (al ++ map (pitem true) gs).
  Proof.
    induction gs as [|x gs IH]; intros Hc Hp ty rest nc al.
    - cbn. now rewrite app_nil_r.
    - inversion Hc as [|? ? Hc1 Hc2]; inversion Hp as [|? ? Hp1 Hp2]; subst.
      destruct gs as [|y gs].
      + cbn [map join_toks]. now apply and_item.
      + cbn [map]. rewrite join_toks_cons. rewrite <- !app_assoc.
        rewrite (and_item x Hc1 Hp1). cbn [app and_loop get_type tok_comma tt_eqb].
        rewrite (IH Hc2 Hp2). now rewrite <- app_assoc.
  Qed.

  Lemma or_item x : passes_to_ptree x -> andseq x ->
    forall ty rest nc,
    exists al, flushes al (pitem false x) /\
      and_loop group_and_tokens ty (rawitem false x ++ rest) nc [] =
      and_loop group_and_tokens ty rest nc al.
  Proof.
    intros Hp Ha ty rest nc. unfold rawitem, pitem.
    destruct (needs_group false x) eqn:En.
    - exists [Branch TTGroup [ptree x]]. split; [now left|].
      cbn [app]. now apply and_loop_group.
    - destruct (Ha En) as (sl & Hf & E). exists sl. split; [exact Hf|apply (E ty rest nc [])].
  Qed.

  Lemma or_items : forall gs, gs <> [] -> Forall passes_to_ptree gs -> Forall andseq gs ->
    forall nc,
      and_loop group_and_tokens TTGroup (join_toks tok_semi (map (rawitem false) gs)) nc [] =
      Ok (Branch TTGroup (nc ++ join_toks tok_semi (map (fun x => [pitem false x]) gs))).
  Proof.
    induction gs as [|x gs IH]; intros Hne Hp Ha nc; [congruence|].
    inversion Hp as [|? ? Hp1 Hp2]; inversion Ha as [|? ? Ha1 Ha2]; subst.
    destruct gs as [|y gs].
    - cbn [map join_toks].
      destruct (or_item x Hp1 Ha1 TTGroup [] nc) as (al & Hf & E).
      rewrite app_nil_r in E. rewrite E. now apply and_loop_end.
    - rewrite !join_toks_map_cons.
      destruct (or_item x Hp1 Ha1 TTGroup
                  ([tok_semi] ++ join_toks tok_semi (map (rawitem false) (y :: gs))) nc)
        as (al & Hf & E).
      rewrite E. cbn [app]. rewrite (and_loop_semi _ _ _ _ _ _ Hf).
      rewrite (IH ltac:(discriminate) Hp2 Ha2). now rewrite <- !app_assoc.
  Qed.

  Lemma pitem_orsel ga x : orsel (pitem ga x) = true.
  Proof. now destruct x as [[] gs| | |], ga. Qed.

  Lemma filter_or_items : forall gs,
    filter orsel (join_toks tok_semi (map (fun x => [pitem false x]) gs)) = map (pitem false) gs.
  Proof.
    induction gs as [|x gs IH]; [reflexivity|].
    destruct gs as [|y gs].
    - cbn. now rewrite pitem_orsel.
    - cbn [map]. rewrite join_toks_cons. cbn [app filter].
      rewrite pitem_orsel. change (orsel tok_semi) with false. cbv iota.
      f_equal. exact IH.
  Qed.

  Theorem passes_goal : forall g, canonical_goal g -> passes_to_ptree g /\ andseq g.
  Proof.
    apply canonical_goal_rec.
    - intros l Hl. destruct (leaf_tree l Hl) as (t & Er & Ep & _).
      unfold passes_to_ptree, andseq. rewrite Er, Ep. split.
      + exists [Leaf TTSubgoal t]. split; reflexivity.
      + intros _. exists [Leaf TTSubgoal t]. split; [now left|reflexivity].
    - intros ga gs Hn Hc IH. unfold passes_to_ptree, andseq. rewrite ptree_op, rawseq_op.
      destruct ga; cbn [sep_tok].
      + assert (Hf : flushes (map (pitem true) gs) (Branch TTAnd (map (pitem true) gs))).
        { right. now rewrite map_length. }
        assert (Hseq : forall ty rest nc al,
                  and_loop group_and_tokens ty (join_toks tok_comma (map (rawitem true) gs) ++ rest) nc al =
                  and_loop group_and_tokens ty rest nc (al ++ map (pitem true) gs)).
        { apply and_items; [exact Hc|]. eapply Forall_impl; [|exact IH]. intros x [Hx _] _. exact Hx. }
        split; [|intros _; eauto].
        exists [Branch TTAnd (map (pitem true) gs)]. split; [|reflexivity].
        rewrite group_and_tokens_branch.
        specialize (Hseq TTGroup [] [] []). rewrite app_nil_r in Hseq. rewrite Hseq.
        now apply (and_loop_end group_and_tokens TTGroup []).
      + split; [|discriminate].
        exists (join_toks tok_semi (map (fun x => [pitem false x]) gs)). split.
        * rewrite group_and_tokens_branch.
          apply (or_items gs (two_ne _ Hn)); eapply Forall_impl; try exact IH; now intros x [].
        * rewrite group_or_tokens_branch by reflexivity. rewrite filter_or_items.
          destruct gs as [|a [|b gs]]; simpl in Hn; try lia. reflexivity.
  Qed.

  Lemma tttg_group c : token_tree_to_goal ps (Branch TTGroup [c]) = token_tree_to_goal ps c.
  Proof. now rewrite tttg_branch. Qed.

  (* the operands of an And (and_too = false) / of an Or (and_too = true) *)
  Lemma ops_loop_items (ga : bool) : forall gs acc,
    Forall canonical_goal gs ->
    Forall (fun x => token_tree_to_goal ps (ptree x) = Ok (POk x)) gs ->
    ops_loop ps (token_tree_to_goal ps) (negb ga) (map (pitem ga) gs) acc = Ok (POk (acc ++ gs)).
  Proof.
    induction gs as [|x gs IH]; intros acc Hc Ht; [cbn; now rewrite app_nil_r|].
    inversion Hc as [|? ? Hc1 Hc2]; inversion Ht as [|? ? Ht1 Ht2]; subst.
    cbn [map ops_loop].
    change (pitem ga x) with (if needs_group ga x then Branch TTGroup [ptree x] else ptree x).
    destruct (needs_group ga x) eqn:En.
    - cbn [get_type tt_eqb orb]. rewrite tttg_group, Ht1. cbn [bind].
      rewrite IH by assumption. now rewrite <- app_assoc.
    - destruct (not_group_leaf ga x Hc1 En) as [Hl|[-> (gs' & ->)]].
      + destruct (leaf_tree x Hl) as (t & _ & Ep & Hps). rewrite Ep.
        cbn [get_type tt_eqb get_token_str bind]. rewrite Hps. cbn [bind].
        rewrite IH by assumption. now rewrite <- app_assoc.
      + rewrite (ptree_op true) in *. cbn [negb get_type tt_eqb orb andb].
        rewrite Ht1. cbn [bind]. rewrite IH by assumption. now rewrite <- app_assoc.
  Qed.

  Theorem tttg_ptree : forall g, canonical_goal g -> token_tree_to_goal ps (ptree g) = Ok (POk g).
  Proof.
    apply canonical_goal_rec.
    - intros l Hl. now destruct (leaf_tree l Hl) as (t & _ & -> & Hps).
    - intros ga gs _ Hc IH. rewrite ptree_op, tttg_branch.
      pose proof (ops_loop_items ga gs [] Hc IH) as H.
      destruct ga; cbn [tt_eqb negb] in *; now rewrite H.
  Qed.

  Lemma show_goal_operands (ga : bool) : forall gs,
    Forall (fun x => show_goal x = Ok (text x)) gs ->
    (fix go (l : list goal) : res (list str) :=
       match l with
       | [] => Ok []
       | op :: l' => do s <- show_goal op; do r <- go l'; Ok (operand_text ga op s :: r)
       end) gs = Ok (map (item_text ga) gs).
  Proof.
    induction gs as [|x gs IH]; intros H; [reflexivity|].
    inversion H as [|? ? H1 H2]; subst. rewrite H1. cbn [bind]. rewrite (IH H2). reflexivity.
  Qed.

  Theorem show_text : forall g, canonical_goal g -> show_goal g = Ok (text g).
  Proof.
    apply canonical_goal_rec.
    - intros l [Hl (t & Hs & _)]. now destruct (leaf_forms l t Hl Hs) as (-> & _).
    - intros ga gs _ _ IH. rewrite text_op. pose proof (show_goal_operands ga gs IH) as H.
      destruct ga; cbn [show_goal and_or]; now rewrite H.
  Qed.

  Definition nonwhite_ends (s : str) : Prop :=
    (exists c r, s = c :: r /\ tk_is_whitespace c = false) /\
    (exists r d, s = r ++ [d] /\ tk_is_whitespace d = false).

  Lemma trim_start_nonws c r : tk_is_whitespace c = false -> tk_trim_start (c :: r) = c :: r.
  Proof. simpl. now intros ->. Qed.

  Lemma nonwhite_ends_trim s : nonwhite_ends s -> tk_trim s = s.
  Proof.
    intros [(c & r & -> & Hc) (r' & d & E & Hd)]. unfold tk_trim.
    rewrite (trim_start_nonws c r Hc). rewrite E, rev_app_distr. cbn [rev app].
    rewrite (trim_start_nonws d (rev r') Hd). cbn [rev]. now rewrite rev_involutive.
  Qed.

  (* tk_trim_start only removes: when nothing is removed the first character is not white *)
  Lemma trim_start_same_length s : (length s <= length (tk_trim_start s))%nat -> s <> [] ->
    exists c r, s = c :: r /\ tk_is_whitespace c = false.
  Proof.
    destruct s as [|c r]; [congruence|]. intros H _. exists c, r. split; [reflexivity|].
    cbn [tk_trim_start] in H. destruct (tk_is_whitespace c); [|reflexivity].
    pose proof (trim_start_length r). cbn [length] in H. lia.
  Qed.

  Lemma trim_nonwhite_ends s : tk_trim s = s -> s <> [] -> nonwhite_ends s.
  Proof.
    intros Ht Hne.
    assert (Hl : (length s <= length (tk_trim_start (rev (tk_trim_start s))))%nat).
    { rewrite <- Ht at 1. unfold tk_trim. now rewrite rev_length. }
    pose proof (trim_start_length (rev (tk_trim_start s))) as L1.
    pose proof (trim_start_length s) as L2. rewrite rev_length in L1.
    destruct (trim_start_same_length s ltac:(lia) Hne) as (c & r & E & Hc).
    split; [now exists c, r|].
    rewrite E, (trim_start_nonws c r Hc), <- E in Hl.
    destruct (trim_start_same_length (rev s) ltac:(rewrite rev_length; exact Hl)) as (d & r' & E' & Hd).
    { intros E0. apply (f_equal (@length N)) in E0. rewrite rev_length in E0.
      destruct s; [congruence|discriminate]. }
    exists (rev r'), d. split; [|exact Hd].
    rewrite <- (rev_involutive s), E'. reflexivity.
  Qed.

  Lemma nonwhite_ends_app a m b : nonwhite_ends a -> nonwhite_ends b -> nonwhite_ends (a ++ m ++ b).
  Proof.
    intros [(c & r & -> & Hc) _] [_ (r' & d & -> & Hd)]. split.
    - exists c, (r ++ m ++ r' ++ [d]). split; [reflexivity|exact Hc].
    - exists ((c :: r) ++ m ++ r'), d. split; [now rewrite <- !app_assoc|exact Hd].
  Qed.

  Lemma nonwhite_ends_paren s : nonwhite_ends ([ch_lparen] ++ s ++ [ch_rparen]).
  Proof.
    split.
    - exists ch_lparen, (s ++ [ch_rparen]). split; reflexivity.
    - exists ([ch_lparen] ++ s), ch_rparen. split; [now rewrite <- app_assoc|reflexivity].
  Qed.

  Lemma nonwhite_ends_format_list sep : forall l, l <> [] -> Forall nonwhite_ends l -> nonwhite_ends (format_list l sep).
  Proof.
    induction l as [|x l IH]; intros Hne HF; [congruence|].
    inversion HF as [|? ? H1 H2]; subst.
    destruct l as [|y l].
    - now rewrite format_list_one.
    - rewrite format_list_cons. apply nonwhite_ends_app; [exact H1|]. apply IH; [discriminate|exact H2].
  Qed.

  Lemma neutral_nonwhite_ends t : neutral t -> nonwhite_ends t.
  Proof.
    intros Hn. apply trim_nonwhite_ends; [|apply (neu_ne t Hn)].
    pose proof (neu_tok t Hn [] eq_refl) as H. cbn [app] in H.
    unfold make_leaf_token in H.
    repeat match type of H with
           | (if ?b then _ else _) = _ => destruct b
           end; inversion H; congruence.
  Qed.

  Lemma text_nonwhite_ends : forall g, canonical_goal g -> nonwhite_ends (text g).
  Proof.
    apply canonical_goal_rec.
    - intros l [Hl (t & Hs & Hn & _)]. destruct (leaf_forms l t Hl Hs) as (-> & _).
      now apply neutral_nonwhite_ends.
    - intros ga gs Hn _ IH. rewrite text_op. apply nonwhite_ends_format_list.
      + intros E. apply map_eq_nil in E. now apply (two_ne gs Hn).
      + apply Forall_map. eapply Forall_impl; [|exact IH]. intros x Hx.
        unfold item_text, operand_text. destruct (needs_group ga x); [apply nonwhite_ends_paren|exact Hx].
  Qed.

  Lemma lastw_items_ne ga : forall gs, gs <> [] ->
    Forall (fun x => forall w0, lastw x w0 <> []) gs ->
    forall w0, lastw_items lastw ga gs w0 <> [].
  Proof.
    induction gs as [|x gs IH]; intros Hne HF w0; [congruence|].
    inversion HF as [|? ? H1 H2]; subst.
    destruct gs as [|y gs].
    - cbn [lastw_items]. destruct (needs_group ga x); [|apply H1].
      intros E. apply app_eq_nil in E as [_ E]. discriminate.
    - rewrite lastw_items_cons. apply IH; [discriminate|exact H2].
  Qed.

  Lemma lastw_ne : forall g, canonical_goal g -> forall w0, lastw g w0 <> [].
  Proof.
    apply (canonical_goal_rec (fun g => forall w0, lastw g w0 <> [])).
    - intros l [Hl (t & Hs & Hn & _)] w0. destruct (leaf_forms l t Hl Hs) as (_ & -> & _).
      intros E. apply app_eq_nil in E as [_ E]. now apply (neu_ne t Hn).
    - intros ga gs Hn _ IH. rewrite lastw_op. apply lastw_items_ne; [now apply two_ne|exact IH].
  Qed.

  Theorem tokenize_text g fuel :
    canonical_goal g -> (length (text g) < fuel)%nat ->
    tokenize fuel (text g) = Ok (POk (pre g [] ++ [make_leaf_token (lastw g [])])).
  Proof.
    intros Hc Hf. rewrite tokenize_stream. unfold stokenize.
    rewrite (nonwhite_ends_trim _ (text_nonwhite_ends g Hc)).
    destruct (text g) as [|c0 r] eqn:Et.
    { destruct (text_nonwhite_ends g Hc) as [(c & r & E & _) _]. rewrite Et in E. discriminate. }
    rewrite <- Et in Hf |- *.
    destruct (scan_goal g Hc [] ch_hash [] [] [] eq_refl (or_introl eq_refl)
                        (conj eq_refl eq_refl)) as (pf & Hr & _).
    rewrite app_nil_r in Hr. cbn [app] in Hr.
    rewrite (reach_sloop _ _ Hr eq_refl fuel Hf). cbn [bind s_stk s_w s_toks].
    destruct (lastw g []) as [|x w] eqn:El; [now apply lastw_ne in El|]. reflexivity.
  Qed.

  Theorem roundtrip_goal g fuel :
    canonical_goal g -> (2 * length (text g) + 3 <= fuel)%nat ->
    show_goal g = Ok (text g) /\ generate_goal ps fuel (text g) = Ok (POk g).
  Proof.
    intros Hc Hf. split; [now apply show_text|].
    unfold generate_goal.
    pose proof (tokenize_text g fuel Hc ltac:(lia)) as Ht. rewrite Ht. cbn [bind].
    assert (HL : (length (pre g [] ++ [make_leaf_token (lastw g [])]) <= 2 * length (text g) + 1)%nat).
    { rewrite tokenize_stream in Ht. now apply stokenize_length in Ht. }
    rewrite group_tokens_stream. unfold sgroup_tokens.
    assert (HG : GTS (pre g [] ++ [make_leaf_token (lastw g [])]) []
                     (Branch TTGroup (rawseq g), [])).
    { apply (groups_goal g Hc [] [] [] _ eq_refl). cbn [app]. apply GTS_nil. }
    rewrite (GTS_gts _ _ _ HG fuel ltac:(lia)). cbn [bind fst].
    destruct (passes_goal g Hc) as [(m & H1 & H2) _]. rewrite H1. cbn [bind]. rewrite H2. cbn [bind].
    rewrite tttg_group. now apply tttg_ptree.
  Qed.

  Variable pc : str -> res (presult term).

  (* no `:-` inside the text *)
  Fixpoint neckfree (s : str) : bool :=
    match s with
    | c :: ((d :: _) as r) => if (c =? ch_colon) && (d =? ch_hyphen) then false else neckfree r
    | _ => true
    end.

  Definition starts_hyphen (s : str) : bool :=
    match s with c :: _ => c =? ch_hyphen | [] => false end.

  Lemma neckfree_tail c s : neckfree (c :: s) = true ->
    neckfree s = true /\ ((c =? ch_colon) = true -> starts_hyphen s = false).
  Proof.
    destruct s as [|d s]; [now split|]. cbn [neckfree starts_hyphen].
    destruct (c =? ch_colon), (d =? ch_hyphen); cbn [andb]; intros H; split; auto; discriminate.
  Qed.

  Lemma ion_loop_none : forall s i b,
    neckfree s = true -> (b = true -> starts_hyphen s = false) -> ion_loop s i b = Ok None.
  Proof.
    induction s as [|c s IH]; intros i b Hn Hb; [reflexivity|].
    cbn [ion_loop]. destruct (neckfree_tail c s Hn) as [Hn' Hc].
    destruct ((c =? ch_hyphen) && b) eqn:E.
    - apply andb_true_iff in E as [E1 E2]. specialize (Hb E2). cbn in Hb. congruence.
    - apply IH; auto.
  Qed.

  Lemma ion_loop_skip rest : forall s i b,
    neckfree s = true -> (b = true -> starts_hyphen s = false) ->
    ion_loop (s ++ 32 :: rest) i b = ion_loop rest (i + length s + 1) false.
  Proof.
    induction s as [|c s IH]; intros i b Hn Hb.
    - cbn [app ion_loop length]. replace (i + 0 + 1)%nat with (S i) by lia. reflexivity.
    - cbn [app ion_loop length]. destruct (neckfree_tail c s Hn) as [Hn' Hc].
      destruct ((c =? ch_hyphen) && b) eqn:E.
      + apply andb_true_iff in E as [E1 E2]. specialize (Hb E2). cbn in Hb. congruence.
      + rewrite IH by auto. f_equal. lia.
  Qed.

  Definition neck : str := [32; ch_colon; ch_hyphen; 32].     (* " :- " *)

  Lemma index_of_neck_rule H B :
    neckfree H = true -> index_of_neck (H ++ neck ++ B) = Ok (Some (length H + 1)%nat).
  Proof.
    intros Hn. unfold index_of_neck, neck. cbn [app].
    rewrite ion_loop_skip by (auto; discriminate). cbn [ion_loop].
    change (ch_colon =? ch_hyphen) with false. cbn [andb].
    change (ch_colon =? ch_colon) with true. change (ch_hyphen =? ch_hyphen) with true. cbn [andb].
    replace (0 + length H + 1)%nat with (S (length H)) by lia. f_equal. f_equal. lia.
  Qed.

  Lemma generate_goal_trim fuel a b :
    tk_trim a = tk_trim b -> generate_goal ps fuel a = generate_goal ps fuel b.
  Proof. intros E. unfold generate_goal, tokenize. now rewrite E. Qed.

  Lemma canonical_not_nil g : canonical_goal g -> goal_eqb g GNil = false.
  Proof.
    intros Hc. pose proof (canonical_inv _ Hc) as Hi.
    destruct g as [k gs|f [ts|]|t|]; try reflexivity.
    destruct Hi as [Hl _]. discriminate.
  Qed.

  (* a canonical rule: the head is a term whose text `H` is accepted by parse_complex (for a
     fact) and, followed by a space, by parse_subgoal (for a rule); neither the head nor the
     body contains `:-`; the head text does not start with white space *)
  Record canonical_head (h : term) : Prop := mkHead {
    head_tight : exists c r, show_term h = c :: r /\ tk_is_whitespace c = false;
    head_neckfree : neckfree (show_term h) = true;
    head_fact : pc (show_term h) = Ok (POk h);
    head_rule : ps (show_term h ++ [32]) = Ok (POk (GCall h))
  }.

  Definition canonical_rule (r : rule) : Prop :=
    canonical_head (r_head r) /\
    (r_body r = GNil \/ (canonical_goal (r_body r) /\ neckfree (text (r_body r)) = true)).

  Definition rule_text (r : rule) : str :=
    if goal_eqb (r_body r) GNil then show_term (r_head r) ++ [ch_period]
    else show_term (r_head r) ++ neck ++ text (r_body r) ++ [ch_period].

  Lemma slice_mid (s a b c : str) i j :
    s = a ++ b ++ c -> i = length a -> j = (length a + length b)%nat -> slice s i j = Ok b.
  Proof.
    intros -> -> ->. rewrite slice_ok by (rewrite ?app_length; lia).
    rewrite skipn_app, Nat.sub_diag, skipn_all. cbn [app skipn].
    replace (length a + length b - length a)%nat with (length b) by lia.
    rewrite firstn_app, Nat.sub_diag, firstn_all. cbn [firstn]. now rewrite app_nil_r.
  Qed.

  Lemma strip_period X fuel :
    X <> [] ->
    (exists c r, X = c :: r /\ tk_is_whitespace c = false) ->
    parse_rule ps pc fuel (X ++ [ch_period]) =
    (do neck <- index_of_neck X;
     match neck with
     | Some index =>
         do head_chrs <- slice X 0 index;
         do body_chrs <- slice X (index + 2) (length X);
         do neck2 <- index_of_neck body_chrs;
         match neck2 with
         | Some _ => Ok PErr
         | None =>
             do sg <- ps head_chrs;
             match sg with
             | POk (GCall h) =>
                 do b <- generate_goal ps fuel body_chrs;
                 match b with
                 | POk body => Ok (POk (mkRule h body))
                 | PErr => Ok PErr
                 end
             | POk _ => Ok PErr
             | PErr => Ok PErr
             end
         end
     | None =>
         do f <- pc X;
         match f with
         | POk fact => Ok (POk (mkRule fact GNil))
         | PErr => Ok PErr
         end
     end).
  Proof.
    intros Hne (c & r & E & Hc). unfold parse_rule.
    assert (Ht : tk_trim (X ++ [ch_period]) = X ++ [ch_period]).
    { apply nonwhite_ends_trim. split.
      - exists c, (r ++ [ch_period]). split; [now rewrite E|exact Hc].
      - exists X, ch_period. split; reflexivity. }
    (* the small facts first: every rewrite below passes over the whole body of parse_rule *)
    assert (E1 : length (X ++ [ch_period]) = S (length X)) by (rewrite app_length; cbn [length]; lia).
    assert (E0 : (S (length X) - 1)%nat = length X) by lia.
    assert (E2 : nth_error (X ++ [ch_period]) (length X) = Some ch_period).
    { rewrite nth_error_app2 by lia. now rewrite Nat.sub_diag. }
    assert (E3 : slice (X ++ [ch_period]) 0 (length X) = Ok X).
    { apply (slice_mid _ [] X [ch_period]); reflexivity. }
    rewrite Ht, E1. cbn [Nat.eqb]. rewrite E0, E2.
    change (ch_period =? ch_period) with true. cbv iota. now rewrite E3.
  Qed.

  Theorem roundtrip_rule r fuel :
    canonical_rule r -> (2 * length (rule_text r) + 3 <= fuel)%nat ->
    show_rule r = Ok (rule_text r) /\ parse_rule ps pc fuel (rule_text r) = Ok (POk r).
  Proof.
    intros [[Ht Hn Hfact Hrule] Hb] Hf. destruct r as [h b]. cbn [r_head r_body] in *.
    unfold show_rule, rule_text in *. cbn [r_head r_body] in *.
    assert (HXne : forall Y, show_term h ++ Y <> []).
    { destruct Ht as (c & r & -> & _). discriminate. }
    assert (HXt : forall Y, exists c r, show_term h ++ Y = c :: r /\ tk_is_whitespace c = false).
    { intros Y. destruct Ht as (c & r & -> & Hc). exists c, (r ++ Y). split; [reflexivity|exact Hc]. }
    destruct Hb as [-> | [Hc Hnb]].
    - (* a fact *)
      cbn [goal_eqb]. split; [reflexivity|].
      specialize (HXne []). specialize (HXt []). rewrite app_nil_r in HXne, HXt.
      rewrite strip_period by assumption.
      unfold index_of_neck. rewrite ion_loop_none by (auto; discriminate). cbn [bind].
      rewrite Hfact. reflexivity.
    - (* a rule *)
      rewrite (canonical_not_nil b Hc) in *.
      destruct (roundtrip_goal b fuel Hc) as [Hs Hg].
      { rewrite !app_length in Hf. cbn [length] in Hf. lia. }
      split; [rewrite Hs; reflexivity|].
      replace (show_term h ++ neck ++ text b ++ [ch_period])
        with ((show_term h ++ neck ++ text b) ++ [ch_period]) by now rewrite <- !app_assoc.
      rewrite strip_period by auto.
      rewrite index_of_neck_rule by exact Hn. cbn [bind].
      (* the head: H followed by one space; the body: one space and the text of the body *)
      rewrite (slice_mid _ [] (show_term h ++ [32]) ([ch_colon; ch_hyphen; 32] ++ text b))
        by (rewrite ?app_length; (reflexivity || now rewrite <- app_assoc)).
      rewrite (slice_mid _ (show_term h ++ [32; ch_colon; ch_hyphen]) (32 :: text b) [])
        by (rewrite ?app_length; cbn [length neck]; (lia || now rewrite app_nil_r, <- app_assoc)).
      cbn [bind].
      unfold index_of_neck. cbn [ion_loop].
      change (32 =? ch_hyphen) with false. cbn [andb]. change (32 =? ch_colon) with false.
      rewrite ion_loop_none by (auto; discriminate). cbn [bind].
      rewrite Hrule. cbn [bind].
      rewrite (generate_goal_trim fuel (32 :: text b) (text b)).
      2:{ exact (ReaderProofs.trim_ws_app [32] (text b) eq_refl). }
      rewrite Hg. reflexivity.
  Qed.
End Roundtrip.

(* A decidable sufficient condition for `neutral`: a scan of the text alone, with the
   parentheses / brackets it opens itself on a local stack.  The text is accepted when every
   quote is closed inside the text, every `(` follows a letter, digit, `_` or `-` (so that
   it opens a complex term, not a group), parentheses and brackets are matched, and no
   unescaped comma, semicolon, double quote, `#` or `@` occurs outside them. *)

Fixpoint lscan (fuel : nat) (t : str) (p : N) (loc : list token_type) : option N :=
  match fuel with
  | O => None
  | S f =>
      match t with
      | [] => match loc with [] => Some p | _ => None end
      | c :: r =>
          if no_esc c ch_quote p then
            match quote_loop r 0 ch_hash c with
            | (Some k, ch') => lscan f (skipn (S k) r) ch' loc
            | (None, _) => None
            end
          else if no_esc c ch_lparen p then
            if letter_number_hyphen p then lscan f r c (TTComplex :: loc) else None
          else if no_esc c ch_rparen p then
            match loc with TTComplex :: loc' => lscan f r c loc' | _ => None end
          else if no_esc c ch_lbracket p then lscan f r c (TTLinkedList :: loc)
          else if no_esc c ch_rbracket p then
            match loc with TTLinkedList :: loc' => lscan f r c loc' | _ => None end
          else
            match loc with
            | [] => if invalid_between_terms c || no_esc c ch_comma p || no_esc c ch_semicolon p
                    then None else lscan f r c []
            | _ => lscan f r c loc
            end
      end
  end.

Lemma quote_loop_prefix rest : forall r j p c k ch',
  quote_loop r j p c = (Some k, ch') -> quote_loop (r ++ rest) j p c = (Some k, ch').
Proof.
  induction r as [|x r IH]; intros j p c k ch' H; simpl in *; [discriminate|].
  destruct (no_esc x ch_quote p); [exact H|]. now apply IH.
Qed.

Definition local_ok (loc : list token_type) : Prop :=
  Forall (fun ty => ty = TTComplex \/ ty = TTLinkedList) loc.

Lemma lscan_sound : forall fuel t p loc pf,
  lscan fuel t p loc = Some pf -> local_ok loc ->
  forall rest w stk toks, ground stk ->
    reach (mkS (t ++ rest) w p (loc ++ stk) toks) (mkS rest (w ++ t) pf stk toks).
Proof.
  induction fuel as [|fuel IH]; intros t p loc pf H Hloc rest w stk toks Hg; [discriminate|].
  destruct t as [|c r]; cbn [lscan] in H.
  { destruct loc; [|discriminate]. inversion H; subst. rewrite app_nil_r. apply reach_refl. }
  cbn [app].
  (* every case but the quote: one step that keeps c in the slice, to the local stack loc' *)
  assert (Hstep : forall loc',
            sstep c (r ++ rest) w p (loc ++ stk) toks =
              POk (mkS (r ++ rest) (w ++ [c]) c (loc' ++ stk) toks) ->
            lscan fuel r c loc' = Some pf -> local_ok loc' ->
            reach (mkS (c :: r ++ rest) w p (loc ++ stk) toks) (mkS rest (w ++ c :: r) pf stk toks)).
  { intros loc' Hs Hl Hok. eapply reach_step; [unfold sstep_cfg; cbn [s_rest s_w s_prev s_stk s_toks]; now rewrite Hs|].
    specialize (IH _ _ _ _ Hl Hok rest (w ++ [c]) stk toks Hg). now rewrite <- app_assoc in IH. }
  unfold sstep in Hstep.
  destruct (no_esc c ch_quote p) eqn:Eq.
  { destruct (quote_loop r 0 ch_hash c) as [[k|] ch'] eqn:Ek; [|discriminate].
    pose proof (quote_loop_bound _ _ _ _ _ Ek) as Hk.
    eapply reach_step.
    - unfold sstep_cfg, sstep; cbn [s_rest s_w s_prev s_stk s_toks].
      rewrite Eq, (quote_loop_prefix rest _ _ _ _ _ _ Ek). reflexivity.
    - rewrite skipn_app, firstn_app.
      replace (S k - length r)%nat with 0%nat by lia. cbn [skipn firstn]. rewrite app_nil_r.
      specialize (IH _ _ _ _ H Hloc rest (w ++ c :: firstn (S k) r) stk toks Hg).
      rewrite <- app_assoc in IH. cbn [app] in IH. rewrite firstn_skipn in IH. exact IH. }
  destruct (no_esc c ch_lparen p) eqn:El.
  { destruct (letter_number_hyphen p) eqn:Eh; [|discriminate].
    apply (Hstep (TTComplex :: loc)); [reflexivity|exact H|constructor; auto]. }
  destruct (no_esc c ch_rparen p) eqn:Er.
  { destruct loc as [|[] loc']; try discriminate. inversion Hloc; subst.
    apply (Hstep loc'); [reflexivity|exact H|assumption]. }
  destruct (no_esc c ch_lbracket p) eqn:Elb.
  { apply (Hstep (TTLinkedList :: loc)); [reflexivity|exact H|constructor; auto]. }
  destruct (no_esc c ch_rbracket p) eqn:Erb.
  { destruct loc as [|[] loc']; try discriminate. inversion Hloc; subst.
    apply (Hstep loc'); [reflexivity|exact H|assumption]. }
  destruct loc as [|ty loc'].
  - destruct (invalid_between_terms c || no_esc c ch_comma p || no_esc c ch_semicolon p) eqn:Ei;
      [discriminate|].
    apply orb_false_iff in Ei as [Ei Es]. apply orb_false_iff in Ei as [Ei Ec].
    apply (Hstep []); [|exact H|exact Hloc].
    destruct Hg as [G1 G2]. cbn [app]. now rewrite G1, G2, Ei, Ec, Es.
  - apply (Hstep (ty :: loc')); [|exact H|exact Hloc].
    assert (Hty : negb (tt_eqb ty TTComplex) && negb (tt_eqb ty TTLinkedList) = false).
    { inversion Hloc as [|? ? [->| ->] _]; reflexivity. }
    cbn [app peek]. now rewrite Hty.
Qed.

Definition neutralb (t : str) : bool :=
  match t with
  | [] => false
  | _ =>
      str_eqb (tk_trim t) t &&
      negb (str_eqb t [ch_comma]) && negb (str_eqb t [ch_semicolon]) &&
      negb (str_eqb t [ch_lparen]) && negb (str_eqb t [ch_rparen]) &&
      forallb (fun p0 => match lscan (S (length t)) t p0 [] with
                         | Some pf => negb (pf =? ch_backslash)
                         | None => false
                         end) [ch_hash; 32; ch_lparen]
  end.

(* how `neutral` is established: the text is trimmed and the scan crosses it from each of the
   three possible previous characters *)
Lemma neutral_intro t : t <> [] -> tk_trim t = t ->
  (forall p0, okprev p0 ->
     exists pf, lscan (S (length t)) t p0 [] = Some pf /\ (pf =? ch_backslash) = false) ->
  neutral t.
Proof.
  intros Hne Ht Hscan. constructor.
  - exact Hne.
  - intros w0 Hw. unfold make_leaf_token. rewrite (ReaderProofs.trim_ws_app w0 t Hw : tk_trim (w0 ++ t) = tk_trim t), Ht.
    (* a lone comma, semicolon or parenthesis is not crossed by the scan *)
    assert (K : forall c, lscan 2 [c] ch_hash [] = None -> str_eqb t [c] = false).
    { intros c Hc. destruct (str_eqb t [c]) eqn:E; [|reflexivity]. apply str_eqb_eq in E. subst t.
      destruct (Hscan ch_hash (or_introl eq_refl)) as (pf & Hs & _). cbn [length] in Hs. congruence. }
    rewrite !K by reflexivity. reflexivity.
  - intros p0 rest w stk toks Hp Hg. destruct (Hscan p0 Hp) as (pf & Hs & Hpf).
    exists pf. split; [|exact Hpf].
    apply (lscan_sound _ _ _ [] _ Hs (Forall_nil _) rest w stk toks Hg).
Qed.

Theorem neutralb_sound t : neutralb t = true -> neutral t.
Proof.
  unfold neutralb. destruct t as [|c0 t0] eqn:Et; [discriminate|]. rewrite <- Et. intros H.
  apply andb_true_iff in H as [H Hall]. repeat (apply andb_true_iff in H as [H _]).
  apply neutral_intro; [rewrite Et; discriminate|now apply str_eqb_eq|].
  intros p0 Hp. cbn [forallb] in Hall. rewrite andb_true_r in Hall.
  apply andb_true_iff in Hall as [Ha1 Hall]. apply andb_true_iff in Hall as [Ha2 Ha3].
  assert (Hone : match lscan (S (length t)) t p0 [] with
                 | Some pf => negb (pf =? ch_backslash) | None => false end = true).
  { destruct Hp as [->|[->| ->]]; assumption. }
  destruct (lscan (S (length t)) t p0 []) as [pf|]; [|discriminate].
  exists pf. split; [reflexivity|now apply negb_true_iff].
Qed.

(* C10: renaming apart changes only variable ids, consistently, with fresh ids. *)
From Coq Require Import Lia.
From Suiron Require Import Model.Term Model.Subst Model.Show Model.Lists Model.Arith Model.Unify
  Model.Compare Model.Builtins Model.Rename.
Open Scope N_scope.

(* what renaming must not touch: everything but the ids *)
Fixpoint erase (t : term) : term :=
  match t with
  | TVar _ n => TVar 0 n
  | TComplex ts => TComplex (map erase ts)
  | TList a n c tv => TList (erase a) (erase n) c tv
  | TFun f args => TFun f (map erase args)
  | _ => t
  end.

Fixpoint erase_goal (g : goal) : goal :=
  match g with
  | GOp k gs => GOp k (map erase_goal gs)
  | GBip f (Some ts) => GBip f (Some (map erase ts))
  | GBip f None => GBip f None
  | GCall t => GCall (erase t)
  | GNil => GNil
  end.

Definition erase_rule (r : rule) : rule := mkRule (erase (r_head r)) (erase_goal (r_body r)).

Fixpoint tvars (t : term) : list (N * str) :=
  match t with
  | TVar id n => [(id, n)]
  | TComplex ts => flat_map tvars ts
  | TList a n _ _ => tvars a ++ tvars n
  | TFun _ args => flat_map tvars args
  | _ => []
  end.

Fixpoint gvars (g : goal) : list (N * str) :=
  match g with
  | GOp _ gs => flat_map gvars gs
  | GBip _ (Some ts) => flat_map tvars ts
  | GBip _ None => []
  | GCall t => tvars t
  | GNil => []
  end.

Definition rvars (r : rule) : list (N * str) := tvars (r_head r) ++ gvars (r_body r).

Definition mono (st st' : rstate) : Prop :=
  snd st <= snd st' /\ forall name id, vm_get (fst st) name = Some id -> vm_get (fst st') name = Some id.

Definition vm_ok (lo : N) (st : rstate) : Prop :=
  lo <= snd st /\
  (forall name id, vm_get (fst st) name = Some id -> lo < id <= snd st) /\
  (forall n1 n2 id, vm_get (fst st) n1 = Some id -> vm_get (fst st) n2 = Some id -> n1 = n2).

Definition mapped (st : rstate) (occ : list (N * str)) : Prop :=
  forall id name, In (id, name) occ -> vm_get (fst st) name = Some id.

Lemma mono_refl st : mono st st.
Proof. split; [lia|auto]. Qed.

Lemma mono_trans a b c : mono a b -> mono b c -> mono a c.
Proof. intros [H1 H2] [H3 H4]. split; [lia|auto]. Qed.

Lemma mapped_mono st st' occ : mono st st' -> mapped st occ -> mapped st' occ.
Proof. intros [_ H] Hm id name Hin. apply H, Hm, Hin. Qed.

Lemma mapped_app st a b : mapped st a -> mapped st b -> mapped st (a ++ b).
Proof. intros Ha Hb id name Hin. apply in_app_or in Hin as [H|H]; auto. Qed.

Lemma mapped_nil st : mapped st [].
Proof. intros id name []. Qed.

Lemma vm_ok_nil lo : vm_ok lo ([], lo).
Proof. split; [simpl; lia|]. split; simpl; intros; discriminate. Qed.

(* what one renaming does to the state: `rstep st st' occ` for occurrences occ of the result.
   good_term, good_goal and good_rule below are `erase .. = erase .. /\ rstep st st' (..vars ..)` with
   rstep written out, so the tail of any of them is an rstep by conversion. *)
Definition rstep (st st' : rstate) (occ : list (N * str)) : Prop :=
  mono st st' /\ (forall lo, vm_ok lo st -> vm_ok lo st') /\ mapped st' occ.

Lemma rstep_seq st st1 st2 occ1 occ2 : rstep st st1 occ1 -> rstep st1 st2 occ2 -> rstep st st2 (occ1 ++ occ2).
Proof.
  intros (Hm1 & Hk1 & Hp1) (Hm2 & Hk2 & Hp2). split; [eapply mono_trans; eauto|]. split; [auto|].
  apply mapped_app; [eapply mapped_mono; eauto|exact Hp2].
Qed.

Lemma rstep_id st : rstep st st [].
Proof. split; [apply mono_refl|]. split; [auto|apply mapped_nil]. Qed.

(* the result of one renaming, as a property of (input, state, output, state') *)
Definition good_term (t : term) (st : rstate) (t' : term) (st' : rstate) : Prop :=
  erase t' = erase t /\ mono st st' /\ (forall lo, vm_ok lo st -> vm_ok lo st') /\ mapped st' (tvars t').

Lemma rename_var id name st t' st' :
  rename_term (TVar id name) st = (t', st') -> good_term (TVar id name) st t' st'.
Proof.
  destruct st as [vm ctr]. simpl. destruct (vm_get vm name) as [id0|] eqn:Eg; intro H; inversion H; subst; clear H.
  - refine (conj eq_refl (conj (mono_refl _) (conj (fun lo Hk => Hk) _))).
    intros i n [E|[]]. inversion E; subst. exact Eg.
  - refine (conj eq_refl (conj _ (conj _ _))).
    + split; simpl; [lia|]. intros n i Hn. destruct (str_eqb name n) eqn:En; [|exact Hn].
      apply str_eqb_eq in En. subst. congruence.
    + intros lo [H0 [H1 H2]]. simpl in *. split; [simpl; lia|]. split; simpl.
      * intros n i Hn. destruct (str_eqb name n); [inversion Hn; subst|specialize (H1 _ _ Hn)]; lia.
      * intros n1 n2 i Ha Hb.
        destruct (str_eqb name n1) eqn:E1; destruct (str_eqb name n2) eqn:E2.
        -- apply str_eqb_eq in E1, E2. congruence.
        -- inversion Ha; subst. specialize (H1 _ _ Hb). lia.
        -- inversion Hb; subst. specialize (H1 _ _ Ha). lia.
        -- eauto.
    + intros i n [E|[]]. inversion E; subst. simpl. now rewrite str_eqb_refl.
Qed.

Definition good_terms (l : list term) (st : rstate) (l' : list term) (st' : rstate) : Prop :=
  map erase l' = map erase l /\ rstep st st' (flat_map tvars l').

Lemma rename_terms_good_if : forall l,
  Forall (fun t => forall st t' st', rename_term t st = (t', st') -> good_term t st t' st') l ->
  forall st l' st', rename_terms l st = (l', st') -> good_terms l st l' st'.
Proof.
  induction 1 as [|x l Hx _ IH]; intros st l' st' H; simpl in H.
  - inversion H; subst. split; [reflexivity|apply rstep_id].
  - destruct (rename_term x st) as [x' st1] eqn:E1. destruct (rename_terms l st1) as [r st2] eqn:E2.
    inversion H; subst. destruct (Hx _ _ _ E1) as [He1 G1]. destruct (IH _ _ _ E2) as [He2 G2].
    split; [simpl; now rewrite He1, He2|exact (rstep_seq _ _ _ _ _ G1 G2)].
Qed.

(* the anonymous list-recursion inside rename_term is rename_terms *)
Lemma rename_inner_eq : forall l st,
  (fix go (l : list term) (st : rstate) : list term * rstate :=
     match l with
     | [] => ([], st)
     | x :: l' =>
         let '(x', st1) := rename_term x st in
         let '(r, st2) := go l' st1 in (x' :: r, st2)
     end) l st = rename_terms l st.
Proof. induction l as [|x l IH]; intro st; simpl; [reflexivity|]. destruct (rename_term x st). now rewrite IH. Qed.

Lemma rename_complex ts st :
  rename_term (TComplex ts) st = (TComplex (fst (rename_terms ts st)), snd (rename_terms ts st)).
Proof. cbn [rename_term]. rewrite rename_inner_eq. destruct (rename_terms ts st); reflexivity. Qed.
Lemma rename_fun nm ts st :
  rename_term (TFun nm ts) st = (TFun nm (fst (rename_terms ts st)), snd (rename_terms ts st)).
Proof. cbn [rename_term]. rewrite rename_inner_eq. destruct (rename_terms ts st); reflexivity. Qed.

Theorem rename_term_good : forall t st t' st', rename_term t st = (t', st') -> good_term t st t' st'.
Proof.
  induction t as [| |a0|f0|z0|id0 nm0|ts Hts|a n c tv IHa IHn|nm args Hargs] using term_ind';
    intros st t' st' H;
    try (simpl in H; inversion H; subst; split; [reflexivity|apply rstep_id]).
  - now apply rename_var.
  - rewrite rename_complex in H. inversion H; subst.
    destruct (rename_terms_good_if _ Hts st _ _ (surjective_pairing _)) as [He G].
    split; [simpl; now rewrite He|exact G].
  - simpl in H. destruct (rename_term a st) as [a' st1] eqn:E1. destruct (rename_term n st1) as [n' st2] eqn:E2.
    inversion H; subst. destruct (IHa _ _ _ E1) as [He1 G1]. destruct (IHn _ _ _ E2) as [He2 G2].
    split; [simpl; now rewrite He1, He2|exact (rstep_seq _ _ _ _ _ G1 G2)].
  - rewrite rename_fun in H. inversion H; subst.
    destruct (rename_terms_good_if _ Hargs st _ _ (surjective_pairing _)) as [He G].
    split; [simpl; now rewrite He|exact G].
Qed.

Theorem rename_terms_good l st l' st' : rename_terms l st = (l', st') -> good_terms l st l' st'.
Proof.
  apply rename_terms_good_if. apply Forall_forall. intros t _ s t' s' H. now apply rename_term_good.
Qed.

Section goal_ind'.
  Variable P : goal -> Prop.
  Hypothesis HOp : forall k gs, Forall P gs -> P (GOp k gs).
  Hypothesis HBip : forall f ts, P (GBip f ts).
  Hypothesis HCall : forall t, P (GCall t).
  Hypothesis HNil : P GNil.
  Fixpoint goal_ind' (g : goal) : P g :=
    match g with
    | GOp k gs => HOp k gs ((fix go (l : list goal) : Forall P l :=
                               match l with
                               | [] => Forall_nil P
                               | x :: l' => Forall_cons x (goal_ind' x) (go l')
                               end) gs)
    | GBip f ts => HBip f ts
    | GCall t => HCall t
    | GNil => HNil
    end.
End goal_ind'.

(* the anonymous list-recursion inside rename_goal *)
Fixpoint rename_goals (l : list goal) (st : rstate) : res (list goal * rstate) :=
  match l with
  | [] => Ok ([], st)
  | x :: l' =>
      do a <- rename_goal x st;
      let '(x', st1) := a in
      do b <- rename_goals l' st1;
      let '(r, st2) := b in Ok (x' :: r, st2)
  end.

Lemma rename_goal_op k gs st :
  rename_goal (GOp k gs) st = do r <- rename_goals gs st; let '(gs', st') := r in Ok (GOp k gs', st').
Proof. reflexivity. Qed.

Definition good_goal (g : goal) (st : rstate) (g' : goal) (st' : rstate) : Prop :=
  erase_goal g' = erase_goal g /\ mono st st' /\ (forall lo, vm_ok lo st -> vm_ok lo st') /\
  mapped st' (gvars g').

Lemma rename_goals_good : forall l,
  Forall (fun g => forall st g' st', rename_goal g st = Ok (g', st') -> good_goal g st g' st') l ->
  forall st l' st', rename_goals l st = Ok (l', st') ->
  map erase_goal l' = map erase_goal l /\ rstep st st' (flat_map gvars l').
Proof.
  induction 1 as [|x l Hx _ IH]; intros st l' st' H; cbn [rename_goals] in H.
  - inversion H; subst. split; [reflexivity|apply rstep_id].
  - destruct (rename_goal x st) as [[x' st1]| |] eqn:E1; cbn [bind] in H; try discriminate.
    destruct (rename_goals l st1) as [[r st2]| |] eqn:E2; cbn [bind] in H; try discriminate.
    inversion H; subst. destruct (Hx _ _ _ E1) as [He1 G1]. destruct (IH _ _ _ E2) as [He2 G2].
    split; [simpl; now rewrite He1, He2|exact (rstep_seq _ _ _ _ _ G1 G2)].
Qed.

Theorem rename_goal_good : forall g st g' st', rename_goal g st = Ok (g', st') -> good_goal g st g' st'.
Proof.
  induction g as [k gs Hgs|f ts|t|] using goal_ind'; intros st g' st' H.
  - rewrite rename_goal_op in H.
    destruct (rename_goals gs st) as [[gs' st1]| |] eqn:E; cbn [bind] in H; try discriminate.
    inversion H; subst. destruct (rename_goals_good _ Hgs _ _ _ E) as [He G].
    split; [simpl; now rewrite He|exact G].
  - simpl in H. destruct ts as [ts|].
    + destruct (rename_terms ts st) as [ts' st1] eqn:E. inversion H; subst.
      destruct (rename_terms_good _ _ _ _ E) as [He G]. split; [simpl; now rewrite He|exact G].
    + inversion H; subst. split; [reflexivity|apply rstep_id].
  - simpl in H. destruct t; try discriminate.
    destruct (rename_term (TComplex ts) st) as [u' st1] eqn:E. inversion H; subst.
    destruct (rename_term_good _ _ _ _ E) as [He G]. split; [simpl; now rewrite He|exact G].
  - discriminate.
Qed.

Definition good_rule (r : rule) (st : rstate) (r' : rule) (st' : rstate) : Prop :=
  erase_rule r' = erase_rule r /\ mono st st' /\ (forall lo, vm_ok lo st -> vm_ok lo st') /\
  mapped st' (rvars r').

Theorem rename_rule_good r st r' st' : rename_rule r st = Ok (r', st') -> good_rule r st r' st'.
Proof.
  unfold rename_rule. destruct (rename_term (r_head r) st) as [h st1] eqn:Eh.
  destruct (rename_term_good _ _ _ _ Eh) as [He1 G1].
  assert (forall g g' st2, rename_goal g st1 = Ok (g', st2) -> r_body r = g ->
            good_rule r st (mkRule h g') st2) as Hbody.
  { intros g g' st2 Hg Hb. destruct (rename_goal_good _ _ _ _ Hg) as [He2 G2].
    split; [unfold erase_rule; simpl; now rewrite He1, He2, Hb|exact (rstep_seq _ _ _ _ _ G1 G2)]. }
  destruct (r_body r) as [k gs|f ts|c|] eqn:Eb; intro H.
  1, 2: match type of H with bind ?e _ = _ => destruct e as [[g st2]| |] eqn:E end; simpl in H; try discriminate;
    inversion H; subst; eapply Hbody; eauto.
  - destruct (rename_term c st1) as [c' st2] eqn:Ec. inversion H; subst.
    destruct (rename_term_good _ _ _ _ Ec) as [He2 G2].
    split; [unfold erase_rule; simpl; now rewrite He1, He2, Eb|exact (rstep_seq _ _ _ _ _ G1 G2)].
  - inversion H; subst.
    split; [unfold erase_rule; simpl; now rewrite He1, Eb|].
    unfold rvars; simpl. rewrite app_nil_r. exact G1.
Qed.

Definition consistent (occ : list (N * str)) : Prop :=
  forall id1 n1 id2 n2, In (id1, n1) occ -> In (id2, n2) occ -> (n1 = n2 <-> id1 = id2).

Definition fresh_between (lo hi : N) (occ : list (N * str)) : Prop :=
  forall id n, In (id, n) occ -> lo < id <= hi.

Lemma mapped_ok_consistent lo st occ : vm_ok lo st -> mapped st occ ->
  consistent occ /\ fresh_between lo (snd st) occ.
Proof.
  intros [_ [H1 H2]] Hm. split.
  - intros id1 n1 id2 n2 Ha Hb. apply Hm in Ha, Hb. split.
    + intros ->. congruence.
    + intros ->. eapply H2; eauto.
  - intros id n Hin. apply Hm in Hin. eauto.
Qed.

Theorem get_rule_spec kb pred i ctr r' ctr' :
  get_rule kb pred i ctr = Ok (r', ctr') ->
  exists r rules, kb_get kb pred = Some rules /\ nth_error rules (N.to_nat i) = Some r /\
    erase_rule r' = erase_rule r /\ ctr <= ctr' /\
    consistent (rvars r') /\ fresh_between ctr ctr' (rvars r').
Proof.
  unfold get_rule. destruct (kb_get kb pred) as [rules|]; [|discriminate].
  destruct (nth_error rules (N.to_nat i)) as [r|] eqn:En; [|discriminate].
  destruct (rename_rule r ([], ctr)) as [[r0 [vm c0]]| |] eqn:E; simpl; try discriminate.
  intro H. inversion H; subst. exists r, rules.
  destruct (rename_rule_good _ _ _ _ E) as (He & Hm & Hk & Hp).
  destruct (mapped_ok_consistent ctr _ _ (Hk ctr (vm_ok_nil ctr)) Hp) as [Hc Hf].
  split; [reflexivity|]. split; [exact En|]. split; [exact He|]. split; [apply Hm|]. split; assumption.
Qed.

(* a query built by make_query: ids 1..n, consistent *)
Theorem make_query_spec ts g ctr :
  make_query ts = Ok (g, ctr) ->
  exists ts', g = GCall (TComplex ts') /\ map erase ts' = map erase ts /\
    consistent (flat_map tvars ts') /\ fresh_between 0 ctr (flat_map tvars ts').
Proof.
  unfold make_query. destruct (rename_terms ts ([], 0)) as [ts' [vm c0]] eqn:E.
  destruct ts' as [|t0 ts']; [discriminate|]. destruct t0; try discriminate.
  intro H. inversion H; subst. eexists; split; [reflexivity|].
  destruct (rename_terms_good _ _ _ _ E) as (He & Hm & Hk & Hp).
  destruct (mapped_ok_consistent 0 _ _ (Hk 0 (vm_ok_nil 0)) Hp) as [Hc Hf].
  split; [exact He|]. split; assumption.
Qed.

(* erasing ids commutes with the list view: list shapes (incl. [], counts, tail markers)
   survive renaming *)
From Suiron Require Import Spec.SpecLists.

Lemma erase_is_nil t : is_nil (erase t) = is_nil t.
Proof. destruct t; reflexivity. Qed.
Lemma erase_node_count t : node_count (erase t) = node_count t.
Proof. destruct t; reflexivity. Qed.
Lemma erase_is_empty_list t : is_empty_list (erase t) = is_empty_list t.
Proof.
  destruct t as [| | | | | | |a n c tv|]; try reflexivity. simpl.
  destruct a; try reflexivity. destruct n; reflexivity.
Qed.

Definition erase_view (v : list term * option term) : list term * option term :=
  (map erase (fst v), option_map erase (snd v)).

Lemma elems_erase : forall l, elems (erase l) = option_map erase_view (elems l).
Proof.
  induction l as [| |a0|f0|z0|id0 nm0|ts _|a n c tv _ IHn|nm args _] using term_ind'; try reflexivity.
  cbn [erase elems]. rewrite erase_is_nil, erase_is_nil, erase_is_empty_list, erase_node_count, IHn.
  destruct (is_nil a).
  - destruct (is_nil n && (c =? 0) && negb tv); reflexivity.
  - destruct tv.
    + destruct (is_empty_list n && (c =? 1)); reflexivity.
    + destruct (elems n) as [[xs tl]|]; [|reflexivity]. simpl.
      destruct (c =? node_count n + 1); reflexivity.
Qed.


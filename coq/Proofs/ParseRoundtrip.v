(* The integer case only (the lemmas of C20 are in Proofs/ParseTermProofs.v).  Printing a 64-bit integer and parsing the text gives the integer back, negative ones included
   (C19 at term level, the integer case; negative literals are what C20's repair made readable). *)
From Coq Require Import Lia String DecimalPos Decimal.
From Suiron Require Import Model.ParseTerm Model.Show Proofs.ParseTermProofs.
Open Scope N_scope.

Lemma digits_val_acc d : forall acc,
  digits_val (uint_digits d) (Zpos acc) = Some (Zpos (Pos.of_uint_acc d acc)).
Proof.
  induction d as [|d IH|d IH|d IH|d IH|d IH|d IH|d IH|d IH|d IH|d IH]; intros acc;
    cbn [uint_digits digits_val Pos.of_uint_acc]; [reflexivity|..];
    match goal with
    | |- context [is_digit ?c] => change (is_digit c) with true; cbv iota
    end;
    rewrite <- IH; f_equal; lia.
Qed.

Lemma digits_val_uint d : digits_val (uint_digits d) 0 = Some (Z.of_N (Pos.of_uint d)).
Proof.
  induction d as [|d IH|d IH|d IH|d IH|d IH|d IH|d IH|d IH|d IH|d IH];
    cbn [uint_digits digits_val Pos.of_uint]; [reflexivity|..];
    match goal with
    | |- context [is_digit ?c] => change (is_digit c) with true; cbv iota
    end; [exact IH|apply digits_val_acc..].
Qed.

Definition all_digits (s : str) : Prop := Forall (fun c => is_digit c = true) s.

Lemma uint_digits_all d : all_digits (uint_digits d).
Proof.
  induction d; cbn [uint_digits]; constructor; try assumption; reflexivity.
Qed.

Lemma to_uint_digits_nonempty p : uint_digits (Pos.to_uint p) <> [].
Proof.
  pose proof (Unsigned.of_to p) as H.
  destruct (Pos.to_uint p); cbn [uint_digits]; discriminate.
Qed.

Lemma digits_val_pos p : digits_val (uint_digits (Pos.to_uint p)) 0 = Some (Zpos p).
Proof. rewrite digits_val_uint, Unsigned.of_to. reflexivity. Qed.

Lemma is_digit_range c : is_digit c = true -> 48 <= c <= 57.
Proof.
  unfold is_digit, in_range. intros H. apply andb_true_iff in H as [H1 H2].
  apply N.leb_le in H1, H2. lia.
Qed.

Lemma white_range c : is_white c = true -> c <= 32 \/ 133 <= c.
Proof.
  unfold is_white, in_range. intros H.
  repeat (apply orb_true_iff in H as [H|H]);
    first [apply N.eqb_eq in H; lia
          |apply andb_true_iff in H as [H1 H2]; apply N.leb_le in H1, H2; lia].
Qed.

Lemma printable_not_white c : 33 <= c <= 126 -> is_white c = false.
Proof. intros H. destruct (is_white c) eqn:E; [|reflexivity]. apply white_range in E. lia. Qed.

(* a character of a class differs from every character outside it *)
Lemma class_neq (P : N -> bool) c d : P c = true -> P d = false -> (c =? d) = false.
Proof. intros Hc Hd. destruct (N.eqb_spec c d) as [->|]; [congruence|reflexivity]. Qed.

(* a character of a number text: digit or minus sign *)
Definition numch (c : N) : bool := is_digit c || (c =? c_minus).

Lemma numch_range c : numch c = true -> 45 <= c <= 57.
Proof.
  intros H. apply orb_true_iff in H as [H|H]; [apply is_digit_range in H; lia|].
  apply N.eqb_eq in H. subst c. unfold c_minus. lia.
Qed.

Lemma cai_loop_numch s : forall i prev,
  Forall (fun c => numch c = true) s -> (prev =? 32) = false -> cai_loop s i prev None = (INone, O).
Proof.
  induction s as [|c1 tl IH]; intros i prev Hs Hp; [reflexivity|].
  inversion Hs as [|x l Hc Htl]; subst. cbn [cai_loop].
  rewrite !(class_neq numch c1 _ Hc), Hp by reflexivity. apply IH; [exact Htl|].
  now apply (class_neq numch).
Qed.

Lemma classify_loop_digits s : forall i hd hnd hp,
  all_digits s -> classify_loop s i hd hnd hp = (hd || negb (match s with [] => true | _ => false end), hnd, hp).
Proof.
  induction s as [|c r IH]; intros i hd hnd hp Hs; cbn [classify_loop].
  - now rewrite orb_false_r.
  - inversion Hs as [|x l Hc Hr]; subst. rewrite Hc. rewrite IH by exact Hr.
    cbn [orb negb]. now rewrite orb_true_r.
Qed.

Definition i64_range (z : Z) : Prop := (- 2 ^ 63 <= z < 2 ^ 63)%Z.

Lemma show_Z_shape z :
  exists ds, ds <> [] /\ all_digits ds /\
             show_Z z = (if (z <? 0)%Z then c_minus :: ds else ds) /\
             digits_val ds 0 = Some (Z.abs z).
Proof.
  destruct z as [|p|p]; cbn [show_Z Z.ltb Z.compare Z.abs].
  - exists [48]. repeat split; [discriminate|constructor; [reflexivity|constructor]].
  - exists (uint_digits (Pos.to_uint p)). repeat split.
    + apply to_uint_digits_nonempty.
    + apply uint_digits_all.
    + apply digits_val_pos.
  - exists (uint_digits (Pos.to_uint p)). repeat split.
    + apply to_uint_digits_nonempty.
    + apply uint_digits_all.
    + apply digits_val_pos.
Qed.

Lemma all_digits_numch ds : all_digits ds -> Forall (fun c => numch c = true) ds.
Proof. intros H. eapply Forall_impl; [|exact H]. intros c Hc. unfold numch. now rewrite Hc. Qed.

Lemma parse_i64_show_Z z : i64_range z -> parse_i64 (show_Z z) = Some z.
Proof.
  intros Hr. destruct (show_Z_shape z) as (ds & Hne & Hd & Hs & Hv). rewrite Hs.
  assert (E : ((- 2 ^ 63 <=? z) && (z <? 2 ^ 63))%Z = true).
  { unfold i64_range in Hr. apply andb_true_iff. split; [apply Z.leb_le|apply Z.ltb_lt]; lia. }
  unfold parse_i64.
  destruct ds as [|d0 dr] eqn:Eds; [now elim Hne|]. rewrite <- Eds in *.
  destruct (z <? 0)%Z eqn:Ez.
  - cbn [strip_sign]. change (c_minus =? c_minus) with true. cbv iota.
    rewrite Eds at 1. rewrite Hv.
    apply Z.ltb_lt in Ez. replace (- Z.abs z)%Z with z by lia. now rewrite E.
  - assert (Hss : strip_sign ds = (false, ds)).
    { rewrite Eds in Hd |- *. inversion Hd as [|x l Hd0 _]; subst. cbn [strip_sign].
      now rewrite !(class_neq is_digit d0 _ Hd0). }
    rewrite Hss. rewrite Eds at 1. rewrite Hv.
    apply Z.ltb_ge in Ez. replace (Z.abs z) with z by lia. now rewrite E.
Qed.

Lemma show_Z_numch z : Forall (fun c => numch c = true) (show_Z z) /\ show_Z z <> [] /\
  is_digit (last (show_Z z) 0) = true /\ numch (hd 0 (show_Z z)) = true.
Proof.
  destruct (show_Z_shape z) as (ds & Hne & Hd & Hs & _). rewrite Hs.
  assert (Hl : is_digit (last ds 0) = true).
  { clear -Hne Hd. induction ds as [|c r IH]; [now elim Hne|].
    inversion Hd; subst. destruct r as [|c' r']; [assumption|].
    cbn [last] in IH |- *. apply IH; [discriminate|assumption]. }
  destruct (z <? 0)%Z.
  - repeat split.
    + constructor; [reflexivity|now apply all_digits_numch].
    + discriminate.
    + destruct ds; [now elim Hne|]. exact Hl.
  - repeat split.
    + now apply all_digits_numch.
    + exact Hne.
    + exact Hl.
    + destruct ds; [now elim Hne|]. inversion Hd as [|x l Hx _]; subst. cbn [hd]. unfold numch. now rewrite Hx.
Qed.

Lemma classify_show_Z z : classify_term (show_Z z) = (true, false, false).
Proof.
  destruct (show_Z_shape z) as (ds & Hne & Hd & Hs & _). rewrite Hs.
  unfold classify_term. destruct (z <? 0)%Z.
  - cbn [classify_loop]. change (is_digit c_minus) with false. change (c_minus =? c_period) with false.
    change ((0 =? 0)%nat && ((c_minus =? c_plus) || (c_minus =? c_minus))) with true. cbv iota.
    rewrite classify_loop_digits by exact Hd. destruct ds; [now elim Hne|reflexivity].
  - rewrite classify_loop_digits by exact Hd. destruct ds; [now elim Hne|reflexivity].
Qed.

Lemma show_Z_trimmed z : trim (show_Z z) = show_Z z.
Proof.
  destruct (show_Z_numch z) as (Hall & Hne & Hlast & Hhd).
  apply trimmed_trim. right. split.
  - apply printable_not_white. apply numch_range in Hhd. lia.
  - apply printable_not_white. apply is_digit_range in Hlast. lia.
Qed.

Theorem parse_term_show_int : forall fuel z,
  i64_range z -> parse_term (S fuel) (show_Z z) = Ok (POk (TInt z)).
Proof.
  intros fuel z Hr. cbn [parse_term]. unfold parse_term_body. rewrite show_Z_trimmed.
  destruct (show_Z_numch z) as (Hall & Hne & Hlast & Hhd).
  unfold check_arithmetic_infix. rewrite cai_loop_numch by (assumption || reflexivity).
  cbn [infix_fn_name].
  assert (Hs' : match show_Z z with
                | [c0; _] => if c0 =? c_bslash then tl (show_Z z) else show_Z z
                | _ => show_Z z
                end = show_Z z).
  { destruct (show_Z z) as [|c0 [|c1 [|c2 r]]]; try reflexivity.
    cbn [hd] in Hhd. now rewrite (class_neq numch c0 c_bslash Hhd). }
  rewrite Hs'. unfold make_term. rewrite show_Z_trimmed, classify_show_Z.
  destruct (show_Z z) as [|first r] eqn:Es; [now elim Hne|].
  cbn [hd] in Hhd. rewrite <- Es in Hlast |- *.
  rewrite !(class_neq numch first _ Hhd), (class_neq is_digit _ c_rpar Hlast) by reflexivity.
  cbn [andb negb].
  rewrite parse_i64_show_Z by exact Hr.
  destruct (2 <=? length (show_Z z))%nat; reflexivity.
Qed.

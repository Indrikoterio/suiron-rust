(* C23 (the part that is logic): what solve and solve_all report, for EVERY schedule of the stop
   flag.  The timer thread itself is outside every model (DESIGN.md C23). *)
From Suiron Require Import Model.Term Model.Subst Model.Show Model.Lists Model.Arith Model.Unify
  Model.Compare Model.Builtins Model.Rename Model.Solve.
Open Scope N_scope.

Definition answer_text (fuel : nat) (q : term) (s : subst) : res str :=
  do r <- replace_variables fuel q s; format_solution (GCall q) r.

Theorem solve_reports kb fuel nd w nd' txt w' :
  solve fuel kb nd w = Ok (nd', txt, w') ->
  exists sol c w1,
    next kb fuel fuel nd (w_set_flag w false) = Ok (nd', sol, c, w1) /\
    w' = snd (query_stopped w1) /\
    if fst (query_stopped w1) then txt = timeout_msg
    else match sol with
         | None => txt = no_more
         | Some s => exists q, node_goal_term nd' = Some q /\ answer_text fuel q s = Ok txt
         end.
Proof.
  unfold solve. intro H.
  destruct (next kb fuel fuel nd (w_set_flag w false)) as [[[[n1 o1] b1] w1]| |] eqn:E; cbn [bind] in H; try discriminate.
  destruct (query_stopped w1) as [st w2] eqn:Eq. exists o1, b1, w1.
  destruct st.
  - inversion H; subst. rewrite Eq. simpl. auto.
  - destruct o1 as [s|].
    + destruct (node_goal_term n1) as [q|] eqn:Eg; [|discriminate].
      destruct (replace_variables fuel q s) as [r| |] eqn:Er; cbn [bind] in H; try discriminate.
      destruct (format_solution (GCall q) r) as [t| |] eqn:Ef; cbn [bind] in H; try discriminate.
      inversion H; subst. rewrite Eq. simpl. repeat split; auto. exists q. split; [exact Eg|].
      unfold answer_text. rewrite Er. simpl. exact Ef.
    + inversion H; subst. rewrite Eq. simpl. auto.
Qed.

(* `Run kb q fuel nd w l nd' w' stopped` (q: the query, for the texts; fuel: of every request and of the
   formatting): starting from node nd in world w, the requests
   next_solution / read the flag / next_solution / read the flag ... produce the answer texts
   l - each the text of an answer that next_solution returned and after which the flag was
   read FALSE - and end either with a request that finds no answer while the flag still reads
   false (stopped = false: the list is complete) or with a flag that reads true (stopped =
   true: whatever that last request returned is dropped). *)
Inductive Run (kb : kbase) (q : term) (fuel : nat) : node -> world -> list str -> node -> world -> bool -> Prop :=
| Run_complete nd w nd' c w1 :
    next kb fuel fuel nd w = Ok (nd', None, c, w1) -> fst (query_stopped w1) = false ->
    Run kb q fuel nd w [] nd' (snd (query_stopped w1)) false
| Run_stopped nd w nd' sol c w1 :
    next kb fuel fuel nd w = Ok (nd', sol, c, w1) -> fst (query_stopped w1) = true ->
    Run kb q fuel nd w [] nd' (snd (query_stopped w1)) true
| Run_answer nd w nd1 s c w1 txt l nd' w' b :
    next kb fuel fuel nd w = Ok (nd1, Some s, c, w1) -> fst (query_stopped w1) = false ->
    answer_text fuel q s = Ok txt ->
    Run kb q fuel nd1 (snd (query_stopped w1)) l nd' w' b ->
    Run kb q fuel nd w (txt :: l) nd' w' b.

Lemma solve_all_loop_runs kb q fuel : forall n nd acc w nd' l w',
  solve_all_loop n fuel kb nd q acc w = Ok (nd', l, w') ->
  exists l0 b, Run kb q fuel nd w l0 nd' w' b /\ l = acc ++ l0.
Proof.
  induction n as [|f IH]; intros nd acc w nd' l w' H; [discriminate|].
  cbn [solve_all_loop] in H.
  destruct (next kb fuel fuel nd w) as [[[[n1 o1] b1] w1]| |] eqn:E; cbn [bind] in H; try discriminate.
  rewrite (surjective_pairing (query_stopped w1)) in H.
  destruct (fst (query_stopped w1)) eqn:Est.
  - inversion H; subst. exists [], true. split; [|now rewrite app_nil_r].
    exact (Run_stopped _ _ _ _ _ _ _ _ _ E Est).
  - destruct o1 as [s|].
    + destruct (replace_variables fuel q s) as [r| |] eqn:Er; cbn [bind] in H; try discriminate.
      destruct (format_solution (GCall q) r) as [t| |] eqn:Ef; cbn [bind] in H; try discriminate.
      destruct (IH _ _ _ _ _ _ H) as (l0 & b & Hr & ->).
      exists (t :: l0), b. split; [|now rewrite <- app_assoc].
      refine (Run_answer _ _ _ _ _ _ _ _ _ _ _ _ _ _ E Est _ Hr). unfold answer_text. now rewrite Er.
    + inversion H; subst. exists [], false. split; [|now rewrite app_nil_r].
      exact (Run_complete _ _ _ _ _ _ _ _ E Est).
Qed.

(* once the flag has been read true it reads true (until a query is started) *)
Lemma stopped_stays w : fst (query_stopped w) = true -> fst (query_stopped (snd (query_stopped w))) = true.
Proof.
  destruct w as [i fl af o]. unfold query_stopped. cbn [stop_after stop_flag next_id out].
  destruct af as [[|p]|]; cbn [fst snd stop_after stop_flag next_id out]; intro H; try exact H; try reflexivity.
  destruct (N.pos p - 1) as [|p']; cbn [fst]; [reflexivity|exact H].
Qed.

Lemma run_stopped_flag kb q fuel nd w l nd' w' :
  Run kb q fuel nd w l nd' w' true -> fst (query_stopped w') = true.
Proof.
  intro H. remember true as b eqn:Eb. induction H; try discriminate; auto.
  now apply stopped_stays.
Qed.

(* solve_all: the answer texts of a Run, followed by the timeout message exactly when the
   final read of the flag is true - which is always the case after a stopped Run *)
Lemma solve_all_runs kb fuel nd w nd' l w' :
  solve_all fuel kb nd w = Ok (nd', l, w') ->
  exists q l0 b w1,
    node_goal_term nd = Some q /\
    Run kb q fuel nd (w_set_flag w false) l0 nd' w1 b /\
    l = l0 ++ (if fst (query_stopped w1) then [timeout_msg] else []) /\
    w' = snd (query_stopped w1).
Proof.
  unfold solve_all. intro H. destruct (node_goal_term nd) as [q|]; [|discriminate].
  destruct (solve_all_loop fuel fuel kb nd q [] (w_set_flag w false)) as [[[n1 acc] w1]| |] eqn:E;
    cbn [bind] in H; try discriminate.
  destruct (solve_all_loop_runs _ _ _ _ _ _ _ _ _ _ E) as (l0 & b & Hr & Hl). simpl in Hl. subst acc.
  destruct (query_stopped w1) as [st w2] eqn:Eq. inversion H; subst.
  exists q, l0, b, w1. rewrite Eq. repeat split; [exact Hr|].
  destruct st; [reflexivity|now rewrite app_nil_r].
Qed.


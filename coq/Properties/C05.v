(* C05 - An exhausted query stays exhausted. *)
From Suiron Require Import Model.Term Model.Subst Model.Rename Model.Solve Proofs.SolveDead.

(* `dead nd` (Proofs/SolveDead.v) describes the states in which a solution node can be left by
   a request that found no answer - for every kind of node: calls, conjunctions,
   disjunctions, not, time, built-ins, with or without cut flags. *)

(* A request that reports "no answer" leaves the node dead ... *)
Theorem C05_none_then_dead : forall kb bf fuel nd w nd' c w',
  next kb bf fuel nd w = Ok (nd', None, c, w') -> dead nd'.
Proof. exact none_then_dead. Qed.

(* ... and a dead node answers every request with None, leaves the whole world as it was
   (no output, no variable id consumed, no read of the stop flag) and stays dead. *)
Theorem C05_dead_stays : forall kb bf fuel nd w nd' r c w',
  dead nd -> next kb bf fuel nd w = Ok (nd', r, c, w') -> r = None /\ c = false /\ w' = w /\ dead nd'.
Proof. exact dead_stays. Qed.

(* Hence: after the first "no more answers", any number of further requests, with any fuel,
   from any world, all report none and change nothing. *)
Theorem C05_exhausted_stays_exhausted : forall kb bf fuel nd w nd' c w',
  next kb bf fuel nd w = Ok (nd', None, c, w') ->
  forall m fuel2 w2 rs nd2 w3,
    ask_again kb bf fuel2 m nd' w2 = Ok (rs, nd2, w3) ->
    Forall (fun r => r = None) rs /\ w3 = w2.
Proof. exact exhausted_stays_exhausted. Qed.

(* The same through solve: "No more." (or the timeout message), and nothing is written. *)
Theorem C05_solve_after_exhaustion : forall kb fuel nd w nd' txt w',
  dead nd -> solve fuel kb nd w = Ok (nd', txt, w') ->
  (txt = no_more \/ txt = timeout_msg) /\ out w' = out w /\ dead nd'.
Proof.
  intros kb fuel nd w nd' txt w'.
  intros Hd H. unfold solve in H.
  destruct (next kb fuel fuel nd (w_set_flag w false)) as [[[[n1 r1] c1] w1]| |] eqn:E; simpl in H; try discriminate.
  destruct (dead_stays _ _ _ _ _ _ _ _ _ Hd E) as (-> & -> & -> & Hd1).
  unfold query_stopped in H. simpl in H.
  destruct (stop_after w) as [[|p]|]; inversion H; subst; simpl; auto.
Qed.

(* non-vacuity: q(0) :- not(a(1)).  a(1).   |- q($X): the first request already finds no
   answer, and so do two more (the defect repaired by commit 488366f answered q(0) to the second) *)
Definition C05_demo : bool :=
  let a1 := TComplex [TAtom [97%N]; TInt 1] in
  let kb := [([113; 47; 49]%N, [mkRule (TComplex [TAtom [113%N]; TInt 0]) (GOp ONot [GCall a1])]);
             ([97; 47; 49]%N, [mkRule a1 GNil])] in
  match make_base_node kb (GCall (TComplex [TAtom [113%N]; TVar 1 [36; 88]%N])) (mkWorld 1 false None []) with
  | Ok (nd, w) =>
      match next kb 20 20 nd w with
      | Ok (nd1, None, false, w1) =>
          match ask_again kb 20 20 2 nd1 w1 with
          | Ok ([None; None], _, _) => true
          | _ => false
          end
      | _ => false
      end
  | _ => false
  end.
Example C05_witness : C05_demo = true.
Proof. vm_compute. reflexivity. Qed.

Check C05_exhausted_stays_exhausted : forall kb bf fuel nd w nd' c w',
  next kb bf fuel nd w = Ok (nd', None, c, w') ->
  forall m fuel2 w2 rs nd2 w3,
    ask_again kb bf fuel2 m nd' w2 = Ok (rs, nd2, w3) ->
    Forall (fun r => r = None) rs /\ w3 = w2.

Print Assumptions C05_none_then_dead.
Print Assumptions C05_dead_stays.
Print Assumptions C05_exhausted_stays_exhausted.
Print Assumptions C05_solve_after_exhaustion.

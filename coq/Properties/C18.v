(* C18 - Parsers return a value or an error for every input, never panic.

   For EVERY string s and every fuel above a bound that is linear in the length of s, each of
   the entry points returns `Ok (POk v)` (a value) or `Ok PErr` (an error message) - never
   `Panic`, never `OutOfFuel` (the model's "has not finished"; so the running time is bounded
   by a linear number of loop iterations of the model).  The term-level parsers are those of
   Model/ParseTerm.v and Model/ParseGoal.v (stated below; Properties/C18terms.v states them again
   and adds the witnesses and the bound); generate_goal, tokenize and parse_rule are those of
   Model/Tokenizer.v and Model/ParseRule.v (Properties/C18goals.v, with the leaf parsers as
   parameters), here closed with the real leaf parsers. *)
From Coq Require Import Lia.
From Suiron Require Import Model.PResult Model.ParseTerm Model.ParseGoal Model.Tokenizer Model.ParseRule
  Proofs.ParseTermProofs Proofs.TokenizerProofs.

Theorem C18_parse_term : forall s fuel, (parse_fuel s <= fuel)%nat ->
  parse_term fuel s = Ok PErr \/ exists v, parse_term fuel s = Ok (POk v).
Proof. exact parse_term_total. Qed.
Theorem C18_parse_linked_list : forall s fuel, (parse_fuel s <= fuel)%nat ->
  parse_linked_list fuel s = Ok PErr \/ exists v, parse_linked_list fuel s = Ok (POk v).
Proof. exact parse_linked_list_total. Qed.
Theorem C18_parse_complex : forall s fuel, (parse_fuel s <= fuel)%nat ->
  parse_complex fuel s = Ok PErr \/ exists v, parse_complex fuel s = Ok (POk v).
Proof. exact parse_complex_total. Qed.
Theorem C18_parse_function : forall s fuel, (parse_fuel s <= fuel)%nat ->
  parse_function fuel s = Ok PErr \/ exists v, parse_function fuel s = Ok (POk v).
Proof. exact parse_function_total. Qed.
Theorem C18_parse_query : forall s fuel, (parse_fuel s <= fuel)%nat ->
  parse_query fuel s = Ok PErr \/ exists v, parse_query fuel s = Ok (POk v).
Proof. exact parse_query_total. Qed.
Theorem C18_parse_subgoal : forall s fuel, (parse_fuel s <= fuel)%nat ->
  parse_subgoal fuel s = Ok PErr \/ exists v, parse_subgoal fuel s = Ok (POk v).
Proof. exact parse_subgoal_total. Qed.
Theorem C18_parse_arguments : forall s fuel, (parse_fuel s <= fuel)%nat ->
  parse_arguments fuel s = Ok PErr \/ exists v, parse_arguments fuel s = Ok (POk v).
Proof. exact parse_arguments_total. Qed.

(* goals and rules, with the real leaf parsers plugged in (fuel length s + 2 suffices for
   every leaf, a leaf text never being longer than the input) *)
Lemma leaf_subgoal_ok (s t : str) : (length t <= length s)%nat ->
  (exists g, parse_subgoal (length s + 2) t = Ok (POk g)) \/ parse_subgoal (length s + 2) t = Ok PErr.
Proof.
  intro H. destruct (parse_subgoal_total t (length s + 2)) as [E|[v E]]; [unfold parse_fuel; lia| |]; eauto.
Qed.
Lemma leaf_complex_ok (s t : str) : (length t <= length s)%nat ->
  (exists g, parse_complex (length s + 2) t = Ok (POk g)) \/ parse_complex (length s + 2) t = Ok PErr.
Proof.
  intro H. destruct (parse_complex_total t (length s + 2)) as [E|[v E]]; [unfold parse_fuel; lia| |]; eauto.
Qed.

Theorem C18_generate_goal : forall s fuel, (2 * length s + 3 <= fuel)%nat ->
  (exists g, generate_goal (parse_subgoal (length s + 2)) fuel s = Ok (POk g)) \/
  generate_goal (parse_subgoal (length s + 2)) fuel s = Ok PErr.
Proof. intros s fuel H. apply generate_goal_returns_le; [apply leaf_subgoal_ok|exact H]. Qed.

Theorem C18_parse_rule : forall s fuel, (2 * length s + 3 <= fuel)%nat ->
  (exists r, parse_rule (parse_subgoal (length s + 2)) (parse_complex (length s + 2)) fuel s = Ok (POk r)) \/
  parse_rule (parse_subgoal (length s + 2)) (parse_complex (length s + 2)) fuel s = Ok PErr.
Proof.
  intros s fuel H. apply parse_rule_returns_le; [apply leaf_subgoal_ok|apply leaf_complex_ok|exact H].
Qed.

Check C18_parse_rule : forall s fuel, (2 * length s + 3 <= fuel)%nat ->
  (exists r, parse_rule (parse_subgoal (length s + 2)) (parse_complex (length s + 2)) fuel s = Ok (POk r)) \/
  parse_rule (parse_subgoal (length s + 2)) (parse_complex (length s + 2)) fuel s = Ok PErr.

Print Assumptions C18_parse_term.
Print Assumptions C18_parse_linked_list.
Print Assumptions C18_parse_complex.
Print Assumptions C18_parse_function.
Print Assumptions C18_parse_query.
Print Assumptions C18_parse_subgoal.
Print Assumptions C18_parse_arguments.
Print Assumptions C18_generate_goal.
Print Assumptions C18_parse_rule.

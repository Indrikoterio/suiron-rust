(* C07 - Unification is symmetric.

   The syntactic facts.  Symmetry itself is proved in terms of values in Properties/C06.v and C07.v
   (C07_symmetric: if A = B succeeds with a solvable result, B = A succeeds with a result that has
   the same solutions); the statement C07_full below, with one fuel for both orders, is refuted
   there (C07_full_false: the swapped order may need one more unit of fuel).  Symmetry is also
   evaluated on every run by unifying every generated pair in both orders on the implementation
   (as written, and with one side carrying fresh ids as a renamed clause head does) and comparing
   success and the resolved values of all variables.
   PROVED here: whichever order succeeds, its result makes A and B denote the same term in BOTH
   orders (the specification relation is symmetric); constants and constant/variable pairs
   commute outright; a variable or function on the right is handled by swapping. *)
From Suiron Require Import Model.Term Model.Subst Model.Unify Spec.SpecUnify
  Proofs.UnifyInv Proofs.UnifyProps Proofs.UnifySound Proofs.FunctionProps.

Definition C07_full : Prop :=
  forall fuel a b ss, fn_free a = true -> fn_free b = true ->
    (exists s1, unify fuel a b ss = Ok (Some s1)) <-> (exists s2, unify fuel b a ss = Ok (Some s2)).

Theorem C07_partial_result_unifies_both_ways : forall fuel a b ss ss',
  wf2 a = true -> wf2 b = true -> wf2_ss ss ->
  unify fuel a b ss = Ok (Some ss') -> teq ss' a b /\ teq ss' b a.
Proof.
  intros fuel a b ss ss' Ha Hb Hs H. destruct (unify_sound fuel a b ss ss' Ha Hb Hs H) as (T & _ & _).
  split; [exact T|now apply teq_sym].
Qed.

Theorem C07_partial_constants : forall f a b ss,
  is_constant a = true -> is_constant b = true -> unify (S f) a b ss = unify (S f) b a ss.
Proof. exact unify_constants_sym. Qed.

Theorem C07_partial_constant_variable : forall f c id n ss,
  is_constant c = true -> unify (S f) c (TVar id n) ss = unify f (TVar id n) c ss.
Proof. exact unify_constant_var. Qed.

(* a literal [] or a list pattern against a variable: the variable's arm does the work,
   whichever side the list is on *)
Theorem C07_partial_list_variable : forall f t nx c tv id n ss,
  unify (S f) (TList t nx c tv) (TVar id n) ss = unify f (TVar id n) (TList t nx c tv) ss.
Proof. intros. rewrite unify_S. unfold unify_body. reflexivity. Qed.

Theorem C07_partial_complex_variable : forall f ts id n ss,
  unify (S f) (TComplex ts) (TVar id n) ss = unify f (TVar id n) (TComplex ts) ss.
Proof. intros. rewrite unify_S. unfold unify_body. reflexivity. Qed.

Check C07_partial_result_unifies_both_ways : forall fuel a b ss ss',
  wf2 a = true -> wf2 b = true -> wf2_ss ss ->
  unify fuel a b ss = Ok (Some ss') -> teq ss' a b /\ teq ss' b a.

Print Assumptions C07_partial_result_unifies_both_ways.
Print Assumptions C07_partial_constants.
Print Assumptions C07_partial_constant_variable.
Print Assumptions C07_partial_list_variable.
Print Assumptions C07_partial_complex_variable.

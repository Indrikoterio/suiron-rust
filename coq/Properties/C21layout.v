(* C21 closed, with a condition on the layout that is checked by eye.

   `breaks_at_separators L texts`: every piece of every rule but the last ends with one of the
   separators of the canonical text -  `,`  `;`  `=`  or the neck `:-`  (a `-` counts only directly
   after a `:`).  In the text Display prints for a closed rule each of these is followed by exactly
   one space and then by a character that is not white space (proved from the grammar of the
   texts, Proofs/LoadLayout.v `closed_rule_arun`): so the line break replaces that space, the
   continuation line may be indented at will, and the reader's single space at the break
   restores the text.  A break after the sign of a negative number is not of this kind.

   `legal L texts` (Spec/SpecLoad.v) is assumed for what it says about the decoration of the lines:
   indentation and trailing characters are white space, a comment starts with `#`, `%` or `//`
   and stands, like blank and comment lines, only where the text so far is outside parentheses
   and brackets.  Its clause about the line breaks (after a continuation character) asks less than
   breaks_at_separators does (every separator is a continuation character); the theorem
   assumes all of `legal` all the same.  The semantic hypothesis `expected ... = texts` of C21_closed_load
   is not needed. *)
From Coq Require Import String.
From Suiron Require Import Model.Tokenizer Model.ParseRule Proofs.TokenizerProofs Proofs.GoalRoundtrip.
From Suiron Require Import Model.ParseTerm Model.ParseGoal Model.Show Model.ShowGoal Model.Api.
From Suiron Require Import Proofs.TermRoundtrip Proofs.TermRoundtripMain Proofs.GoalLeafParse
  Proofs.RuleRoundtripClosed Proofs.RuleRoundtripCheck Proofs.LoadLayout.
From Suiron Require Import Model.Reader Spec.SpecLoad Proofs.ReaderProofs.
Open Scope N_scope.
Open Scope string_scope.

Theorem C21_closed_load_layout : forall rs L kb,
  Forall closed_rule rs ->
  legal L (map rule_text rs) = true ->
  breaks_at_separators L (map rule_text rs) = true ->
  load_kb_from_file api_parse_rule kb (render L (map rule_text rs)) =
  (do kb' <- add_rules kb rs; Ok (kb', true)).
Proof. exact load_closed_layout. Qed.

(* the property of the texts behind it: read by the automaton `arun` (state 1 = a separator has
   just been read, a space must follow; state 2 = then a character that is not white space), the
   text of a closed rule is accepted *)
Theorem C21_closed_separators : forall r, closed_rule r ->
  arun (0%nat, ch_x) (rule_text r) = Some (0%nat, ch_period) /\
  rd_is_ws (hd 0 (rule_text r)) = false /\ last (rule_text r) 0 = ch_period.
Proof. exact closed_rule_arun. Qed.

(* such a layout is one of the exact layouts of C21 *)
Theorem C21_breaks_exact : forall rs L,
  Forall closed_rule rs -> breaks_at_separators L (map rule_text rs) = true ->
  exact_layout (lay_rules L) (map rule_text rs) = true.
Proof. intros rs L. apply breaks_exact. Qed.

Corollary C21_closed_load_layout_checked : forall rs L,
  forallb closed_ruleb rs = true ->
  legal L (map rule_text rs) = true ->
  breaks_at_separators L (map rule_text rs) = true ->
  load_kb_from_file api_parse_rule [] (render L (map rule_text rs)) =
  (do kb <- add_rules [] rs; Ok (kb, true)).
Proof.
  intros rs L H. apply C21_closed_load_layout. now apply closed_rulesb_sound.
Qed.

(* non-vacuity: the knowledge base of C21_closed_witness, through C21_closed_load_layout; the second
   rule is broken after the neck and after a comma between goals, the third after the `;`, the
   first after a comma inside the list *)
Section Witness.
  Let A s := TAtom (s2l s).
  Let V s := TVar 0 (s2l s).
  Let r1 := mkRule (TComplex [A "member"; V "$X"; make_linked_list true [V "$X"; TAnon]]) GNil.
  Let r2 := mkRule (TComplex [A "run"])
     (GOp OAnd [GCall (TComplex [A "init"]);
                GOp ONot [GCall (TComplex [A "member"; A "a"; make_list_of_terms [A "b"; TInt (-3)]])];
                GBip (s2l "!") None;
                GBip (s2l "unify") (Some [V "$Y"; TInt (-5)])]).
  Let r3 := mkRule (TComplex [A "p"; V "$X"])
     (GOp OOr [GCall (TComplex [A "q"; V "$X"]); GBip (s2l "fail") None]).
  Let rs := [r1; r2; r3].

  Let d0 := mkDeco [] [] [] [].
  Let L := mkLayout
    [ (mkDeco [mkBlank [] (s2l "% a small knowledge base")] [] [] [], [(10%nat, mkDeco [] (s2l "       ") [] [])]);
      (mkDeco [mkBlank [] []] [] (s2l " ") (s2l "# entry point"),
         [(8%nat, mkDeco [] (s2l "    ") [] []);
          (36%nat, mkDeco [mkBlank (s2l "  ") (s2l "% then commit")] (s2l "    ") [] []);
          (5%nat, mkDeco [] (s2l "        ") [] [])]);
      (d0, [(15%nat, mkDeco [] (s2l "  ") [] [])]) ]
    [mkBlank [] (s2l "// end")].

  Example C21_layout_witness :
    render L (map rule_text rs) =
      [ s2l "% a small knowledge base";
        s2l "member($X,";
        s2l "        [$X | $_]).";
        [];
        s2l "run() :- # entry point";
        s2l "     init(), not(member(a, [b, -3])), !,";
        s2l "  % then commit";
        s2l "     $Y =";
        s2l "         -5.";
        s2l "p($X) :- q($X);";
        s2l "   fail.";
        s2l "// end" ] /\
    breaks_at_separators L (map rule_text rs) = true /\
    load_kb_from_file api_parse_rule [] (render L (map rule_text rs)) =
      Ok ([ (s2l "member/2", [r1]); (s2l "run/0", [r2]); (s2l "p/1", [r3]) ], true).
  Proof.
    split; [vm_compute; reflexivity|]. split; [vm_compute; reflexivity|].
    rewrite C21_closed_load_layout_checked by (vm_compute; reflexivity). vm_compute. reflexivity.
  Qed.
End Witness.

(* the break after the sign of a negative number is legal for the reader but is not a break
   at a separator (and it changes the rule: break_after_minus_sign_changes_the_rule in
   Properties/C21.v) *)
Example break_after_minus_sign_is_not_at_a_separator :
  let t := s2l "p(-5)." in
  let L := mkLayout [ (mkDeco [] [] [] [], [(3%nat, mkDeco [] [] [] [])]) ] [] in
  legal L [t] = true /\ breaks_at_separators L [t] = false.
Proof. vm_compute. split; reflexivity. Qed.

Check C21_closed_load_layout : forall rs L kb,
  Forall closed_rule rs ->
  legal L (map rule_text rs) = true ->
  breaks_at_separators L (map rule_text rs) = true ->
  load_kb_from_file api_parse_rule kb (render L (map rule_text rs)) =
  (do kb' <- add_rules kb rs; Ok (kb', true)).

Print Assumptions C21_closed_load_layout.
Print Assumptions C21_closed_separators.

(* C01 - the reference search (Spec/SpecCut.v) IS depth-first, left-to-right SLD resolution with the
   clauses tried in program order: the defining laws, for cut-free programs (no `!` in the goal nor
   in any clause body; not(..) and time(..) allowed).  All laws are equations between results and hold at
   EVERY fuel (Ok, Panic and OutOfFuel alike); the world - id counter, output, stop hook - is threaded
   exactly.

   The answers of a goal in RESUMABLE form are a `stream` (Proofs/SldOrder.v): SNil w | SCons s w rest
   (answer s found in world w; `rest w'` resumes the search in w') | SPanic | SOut; `sld` is the textbook
   stream-of-successes interpreter in direct style (conjunction = sbind, disjunction = sapp, call = sapp
   over the clauses idx = 0, 1, ..).  A resumable form is NECESSARY: fetched clauses are renamed at the
   id counter of the world, and in `g1, g2` the search of g1 resumes in the world g2 left, so the
   second answer of g1 depends on what g2 consumed; the law with `answers g1` as a plain list is false
   (C01sld_naive_list_law_is_false below).

   C01_sld_continuation   for EVERY continuation k: csolve g s w k = hand each answer of g, in order, to
                          k with the flag false, resume g in the world k returns, while k says Go; stop
                          with k's result at the first other signal.
   C01_sld_continuation_go    k always says Go: for each answer in order, k's answers, concatenated.
   C01_sld_continuation_pure  k leaves the world alone: flat_map over the answer LIST of g.
   C01_sld_answers        answers g s w = the stream of g read off, resumed each time in the world of the answer.
   C01_sld_conjunction    answers (g1, g2, ..) s w = for each answer (s1, w1) of g1, in order (resumably):
                          answers (g2, ..) s1 w1, concatenated; g1 resumed in the world that left.
   C01_sld_disjunction    answers (g1; g2; ..) s w = a1 ++ a2 where (a1, w1) = answers g1 s w and
                          (a2, w2) = answers (g2; ..) s w1 - the SAME s; final world w2.
   C01_sld_continuation_quiet, C01_sld_conjunction_quiet, C01_sld_conjunction_bip
                          when the plain answer LIST of g1 does suffice: k (resp. what stands to the
                          right of g1) has answers that depend on the substitution only and changes at
                          most the output of the world, which the search never reads.
   C01_sld_call, C01_sld_clauses   the clauses of the predicate at idx = 0, 1, 2, ..: fetch renamed at the
                          counter; head does not unify: nothing, next clause from the SAME world (counter
                          restored); else a fact gives the unifier, a rule the answers of its body
                          (continuation eliminated); then clause idx + 1 from the world reached. *)
From Suiron Require Import Model.Term Model.Subst Model.Show Model.Builtins Model.Rename Model.Unify Model.Solve
  Spec.SpecCut Proofs.CutOnce Proofs.SldOrder.
Open Scope N_scope.

(* the vocabulary of the statements (Proofs/SldOrder.v, Proofs/CutOnce.v) *)
Example C01sld_cutfree_kb : forall kb,
  cutfree_kb kb = forallb (fun e : str * list rule => forallb (fun r => cutfree (r_body r)) (snd e)) kb.
Proof. reflexivity. Qed.
Example C01sld_answers : forall kb bf fuel g s w,
  answers kb bf fuel g s w
  = do x <- csolve kb bf fuel g s w (fun s' w' _ => Ok ([s'], w', Go)); let '(a, w1, _) := x in Ok (a, w1).
Proof. reflexivity. Qed.
Example C01sld_canswers : forall kb bf fuel q w, canswers kb bf fuel q w = answers kb bf fuel (GCall q) [] w.
Proof. reflexivity. Qed.
Example C01sld_clause_answers : forall kb bf fuel t s key idx n w,
  clause_answers kb bf fuel t s key idx n w
  = do x <- cclauses kb bf fuel t s key idx n w (fun s' w' _ => Ok ([s'], w', Go)); let '(a, w1, _) := x in Ok (a, w1).
Proof. reflexivity. Qed.
(* consuming a stream *)
Example C01sld_sfold : forall k,
  (forall w, sfold (SNil w) k = Ok ([], w, Go)) /\
  (forall s w r, sfold (SCons s w r) k = seq (k s w false) (fun w1 => sfold (r w1) k)) /\
  sfold SPanic k = Panic /\ sfold SOut k = OutOfFuel.
Proof. repeat split. Qed.
Example C01sld_seach : forall f,
  (forall w, seach (SNil w) f = Ok ([], w)) /\
  (forall s w r, seach (SCons s w r) f =
     do x <- f s w; let '(a1, w1) := x in do y <- seach (r w1) f; let '(a2, w2) := y in Ok (a1 ++ a2, w2)) /\
  seach SPanic f = Panic /\ seach SOut f = OutOfFuel.
Proof. repeat split. Qed.
Example C01sld_slist : forall a, slist a = seach a (fun s w => Ok ([s], w)).
Proof. reflexivity. Qed.
(* the stream interpreter: its equations for conjunction, disjunction and the clauses of a call *)
Example C01sld_sld_and : forall kb bf f g1 g2 rest s w,
  sld kb bf (S f) (GOp OAnd (g1 :: g2 :: rest)) s w
  = sbind (sld kb bf f g1 s w) (fun s1 w1 => sld kb bf f (GOp OAnd (g2 :: rest)) s1 w1).
Proof. reflexivity. Qed.
Example C01sld_sld_or : forall kb bf f g1 g2 rest s w,
  sld kb bf (S f) (GOp OOr (g1 :: g2 :: rest)) s w
  = sapp (sld kb bf f g1 s w) (fun w1 => sld kb bf f (GOp OOr (g2 :: rest)) s w1).
Proof. reflexivity. Qed.
Example C01sld_sld_call : forall kb bf f t s w,
  sld kb bf (S f) (GCall t) s w
  = slift (term_key t) (fun key => let '(n, w0) := count_rules kb key w in sclauses kb bf f t s key 0 n w0).
Proof. reflexivity. Qed.
Example C01sld_sclauses : forall kb bf f t s key idx n w,
  sclauses kb bf (S f) t s key idx n w
  = if n <=? idx then SNil w
    else
      slift (get_rule kb key idx (next_id w)) (fun gr =>
        let '(r, ctr) := gr in
        slift (unify bf (r_head r) t s) (fun u =>
          match u with
          | None => sclauses kb bf f t s key (idx + 1) n w
          | Some s' =>
              sapp (if is_gnil (r_body r) then sunit s' (w_set_id w ctr)
                    else sld kb bf f (r_body r) s' (w_set_id w ctr))
                   (fun w2 => sclauses kb bf f t s key (idx + 1) n w2)
          end)).
Proof. reflexivity. Qed.
Example C01sld_sld_bip : forall kb bf f fn ts s w,
  sld kb bf (S f) (GBip fn ts) s w
  = slift (run_bip bf fn ts s) (fun r =>
      match br_sol r with
      | Some s' => sunit s' (w_print w (br_out r))
      | None => SNil (w_print w (br_out r))
      end).
Proof. reflexivity. Qed.
Example C01sld_sld_not : forall kb bf f g1 rest s w,
  sld kb bf (S f) (GOp ONot (g1 :: rest)) s w
  = match sld kb bf f g1 s w with
    | SNil w1 => sunit s w1
    | SCons _ w1 _ => SNil w1
    | e => e
    end.
Proof. reflexivity. Qed.
Example C01sld_sld_time : forall kb bf f g1 rest s w,
  sld kb bf (S f) (GOp OTime (g1 :: rest)) s w
  = match sld kb bf f g1 s w with
    | SNil w1 => SNil (w_print w1 elapsed_token)
    | SCons s1 w1 _ => sunit s1 (w_print w1 elapsed_token)
    | e => e
    end.
Proof. reflexivity. Qed.
Example C01sld_sunit_slift : (forall s w, sunit s w = SCons s w SNil) /\
  (forall A (r : res A) f, slift r f = match r with Ok a => f a | Panic => SPanic | OutOfFuel => SOut end).
Proof. split; reflexivity. Qed.
Example C01sld_sapp : forall b,
  (forall w, sapp (SNil w) b = b w) /\
  (forall s w r, sapp (SCons s w r) b = SCons s w (fun w' => sapp (r w') b)).
Proof. split; reflexivity. Qed.
Example C01sld_sbind : forall f,
  (forall w, sbind (SNil w) f = SNil w) /\
  (forall s w r, sbind (SCons s w r) f = sapp (f s w) (fun w' => sbind (r w') f)).
Proof. split; reflexivity. Qed.

Theorem C01_sld_continuation : forall kb bf, cutfree_kb kb = true ->
  forall fuel g s w k, cutfree g = true ->
  csolve kb bf fuel g s w k = sfold (sld kb bf fuel g s w) k.
Proof. exact sld_continuation. Qed.

Theorem C01_sld_continuation_clauses : forall kb bf, cutfree_kb kb = true ->
  forall fuel t s key idx n w k,
  cclauses kb bf fuel t s key idx n w k = sfold (sclauses kb bf fuel t s key idx n w) k.
Proof. exact sld_continuation_clauses. Qed.

Theorem C01_sld_continuation_go : forall kb bf, cutfree_kb kb = true ->
  forall fuel g s w k, cutfree g = true ->
  (forall s1 w1 a w' sg, k s1 w1 false = Ok (a, w', sg) -> sg = Go) ->
  csolve kb bf fuel g s w k
  = do x <- seach (sld kb bf fuel g s w)
             (fun s1 w1 => do z <- k s1 w1 false; let '(a, w', _) := z in Ok (a, w'));
    let '(l, w') := x in Ok (l, w', Go).
Proof. exact sld_continuation_go. Qed.

Theorem C01_sld_continuation_pure : forall kb bf, cutfree_kb kb = true ->
  forall fuel g s w k (h : subst -> list subst), cutfree g = true ->
  (forall s1 w1, k s1 w1 false = Ok (h s1, w1, Go)) ->
  csolve kb bf fuel g s w k
  = do x <- answers kb bf fuel g s w; let '(l, w') := x in Ok (flat_map h l, w', Go).
Proof.
  intros kb bf Hkb fuel g s w k h Hcf Hk. rewrite (sld_continuation_go kb bf Hkb); [|exact Hcf|].
  2:{ intros s1 w1 a w' sg E. rewrite Hk in E. now inversion E. }
  rewrite (seach_ext _ _ (fun s1 w1 => Ok (h s1, w1))).
  2:{ intros s1 w1. rewrite Hk. reflexivity. }
  rewrite seach_pure, (answers_sld kb bf Hkb _ _ _ _ Hcf). unfold with_go.
  destruct (slist (sld kb bf fuel g s w)) as [[l w']| |]; reflexivity.
Qed.

Theorem C01_sld_answers : forall kb bf, cutfree_kb kb = true ->
  forall fuel g s w, cutfree g = true ->
  answers kb bf fuel g s w = slist (sld kb bf fuel g s w).
Proof. exact answers_sld. Qed.

Theorem C01_sld_conjunction : forall kb bf, cutfree_kb kb = true ->
  forall f g1 g2 rest s w, cutfree (GOp OAnd (g1 :: g2 :: rest)) = true ->
  answers kb bf (S f) (GOp OAnd (g1 :: g2 :: rest)) s w
  = seach (sld kb bf f g1 s w) (fun s1 w1 => answers kb bf f (GOp OAnd (g2 :: rest)) s1 w1).
Proof. exact sld_conjunction. Qed.

Theorem C01_sld_conjunction_k : forall kb bf, cutfree_kb kb = true ->
  forall f g1 g2 rest s w k, cutfree (GOp OAnd (g1 :: g2 :: rest)) = true ->
  csolve kb bf (S f) (GOp OAnd (g1 :: g2 :: rest)) s w k
  = sfold (sld kb bf f g1 s w) (fun s1 w1 _ => csolve kb bf f (GOp OAnd (g2 :: rest)) s1 w1 k).
Proof. exact sld_conjunction_k. Qed.

Theorem C01_sld_conjunction_1 : forall kb bf f g1 s w,
  answers kb bf (S f) (GOp OAnd [g1]) s w = answers kb bf f g1 s w.
Proof. reflexivity. Qed.

Theorem C01_sld_disjunction : forall kb bf, cutfree_kb kb = true ->
  forall f g1 g2 rest s w, cutfree (GOp OOr (g1 :: g2 :: rest)) = true ->
  answers kb bf (S f) (GOp OOr (g1 :: g2 :: rest)) s w
  = do x <- answers kb bf f g1 s w; let '(a1, w1) := x in
    do y <- answers kb bf f (GOp OOr (g2 :: rest)) s w1; let '(a2, w2) := y in
    Ok (a1 ++ a2, w2).
Proof.
  intros kb bf Hkb f g1 g2 rest s w Hcf. destruct (cutfree_cons _ OOr _ _ Hcf) as [Hc1 Hc2].
  rewrite (answers_sld kb bf Hkb _ _ _ _ Hcf), sld_S. cbn [sld_body]. unfold slist. rewrite seach_sapp.
  rewrite (answers_sld kb bf Hkb _ _ _ _ Hc1). unfold slist.
  destruct (seach (sld kb bf f g1 s w) (fun s0 w0 => Ok ([s0], w0))) as [[a1 w1]| |]; cbn [bind]; try reflexivity.
  now rewrite (answers_sld kb bf Hkb _ _ _ _ Hc2).
Qed.

Theorem C01_sld_disjunction_1 : forall kb bf f g1 s w,
  answers kb bf (S f) (GOp OOr [g1]) s w = answers kb bf f g1 s w.
Proof. reflexivity. Qed.

Theorem C01_sld_call : forall kb bf f t s w,
  answers kb bf (S f) (GCall t) s w
  = do key <- term_key t;
    let '(n, w0) := count_rules kb key w in clause_answers kb bf f t s key 0 n w0.
Proof.
  intros kb bf f t s w. unfold answers, clause_answers. rewrite csolve_S. unfold csolve_body, drop_sig.
  destruct (term_key t) as [key| |]; cbn [bind]; try reflexivity.
  destruct (count_rules kb key w) as [n w0]. reflexivity.
Qed.

Theorem C01_sld_clauses : forall kb bf, cutfree_kb kb = true ->
  forall f t s key idx n w,
  clause_answers kb bf (S f) t s key idx n w
  = if n <=? idx then Ok ([], w)
    else
      do gr <- get_rule kb key idx (next_id w);
      let '(r, ctr) := gr in
      do u <- unify bf (r_head r) t s;
      match u with
      | None => clause_answers kb bf f t s key (idx + 1) n w
      | Some s' =>
          do x <- (if is_gnil (r_body r) then Ok ([s'], w_set_id w ctr)
                   else answers kb bf f (r_body r) s' (w_set_id w ctr));
          let '(a1, w2) := x in
          do y <- clause_answers kb bf f t s key (idx + 1) n w2; let '(a2, w3) := y in
          Ok (a1 ++ a2, w3)
      end.
Proof.
  intros kb bf Hkb f t s key idx n w. rewrite (clause_answers_sld kb bf Hkb), sclauses_S. unfold sclauses_body.
  destruct (n <=? idx); [reflexivity|]. unfold slist. rewrite seach_slift.
  destruct (get_rule kb key idx (next_id w)) as [[rl ctr]| |] eqn:Eg; cbn [bind]; try reflexivity.
  rewrite seach_slift.
  destruct (unify bf (r_head rl) t s) as [[s'|]| |]; cbn [bind]; try reflexivity.
  2:{ now rewrite (clause_answers_sld kb bf Hkb). }
  rewrite seach_sapp. destruct (is_gnil (r_body rl)).
  - rewrite seach_sunit. cbn [bind]. rewrite (clause_answers_sld kb bf Hkb). reflexivity.
  - rewrite (answers_sld kb bf Hkb _ _ _ _ (cutfree_fetched _ _ _ _ _ _ Hkb Eg)). unfold slist.
    destruct (seach (sld kb bf f (r_body rl) s' (w_set_id w ctr)) (fun s0 w0 => Ok ([s0], w0))) as [[a1 w2]| |];
      cbn [bind]; try reflexivity.
    rewrite (clause_answers_sld kb bf Hkb). reflexivity.
Qed.

(* with a continuation that always says Go a cut-free search says Go *)
Theorem C01_sld_signal_go : forall kb bf, cutfree_kb kb = true ->
  forall fuel g s w k a w' sg, cutfree g = true ->
  (forall s1 w1 a1 w2 sg1, k s1 w1 false = Ok (a1, w2, sg1) -> sg1 = Go) ->
  csolve kb bf fuel g s w k = Ok (a, w', sg) -> sg = Go.
Proof. exact sld_signal_go. Qed.

(* when the plain answer LIST of g suffices: k's answers depend on the substitution only and k changes
   at most the output of the world (the search never reads the output) *)
Example C01sld_weq : forall w w',
  weq w w' <-> next_id w = next_id w' /\ stop_flag w = stop_flag w' /\ stop_after w = stop_after w'.
Proof. intros; reflexivity. Qed.

Theorem C01_sld_continuation_quiet : forall kb bf, cutfree_kb kb = true ->
  forall fuel g s w k (h : subst -> list subst) l w' sg, cutfree g = true ->
  (forall s1 w1 a w2 sg1, k s1 w1 false = Ok (a, w2, sg1) -> a = h s1 /\ weq w1 w2 /\ sg1 = Go) ->
  csolve kb bf fuel g s w k = Ok (l, w', sg) ->
  exists l0 w0, answers kb bf fuel g s w = Ok (l0, w0) /\ l = flat_map h l0 /\ weq w0 w' /\ sg = Go.
Proof. exact sld_continuation_quiet. Qed.

Theorem C01_sld_conjunction_quiet : forall kb bf, cutfree_kb kb = true ->
  forall f g1 g2 rest s w (h : subst -> list subst) l w', cutfree (GOp OAnd (g1 :: g2 :: rest)) = true ->
  (forall s1 w1 a w2, answers kb bf f (GOp OAnd (g2 :: rest)) s1 w1 = Ok (a, w2) -> a = h s1 /\ weq w1 w2) ->
  answers kb bf (S f) (GOp OAnd (g1 :: g2 :: rest)) s w = Ok (l, w') ->
  exists l0 w0, answers kb bf f g1 s w = Ok (l0, w0) /\ l = flat_map h l0 /\ weq w0 w'.
Proof. exact sld_conjunction_quiet. Qed.

Example C01sld_bip_answers : forall bf fn ts s,
  bip_answers bf fn ts s
  = match run_bip bf fn ts s with
    | Ok r => match br_sol r with Some s' => [s'] | None => [] end
    | _ => []
    end.
Proof. reflexivity. Qed.

Theorem C01_sld_conjunction_bip : forall kb bf, cutfree_kb kb = true ->
  forall f g1 fn ts s w l w', cutfree (GOp OAnd [g1; GBip fn ts]) = true ->
  answers kb bf (S f) (GOp OAnd [g1; GBip fn ts]) s w = Ok (l, w') ->
  exists l0 w0, answers kb bf f g1 s w = Ok (l0, w0) /\ l = flat_map (bip_answers bf fn ts) l0 /\ weq w0 w'.
Proof.
  intros kb bf Hkb f g1 fn ts s w l w' Hcf H.
  refine (sld_conjunction_quiet kb bf Hkb f g1 (GBip fn ts) [] s w _ l w' Hcf _ H).
  intros s1 w1 a w2 E. destruct f as [|f]; [discriminate|]. exact (bip_output_only kb bf f fn ts s1 w1 a w2 E).
Qed.

(* non-vacuity
     c(1). c(2).   d(7). d(8).                                   ground: no ids consumed
     p(f($A)). p(g($B)).   q(h($C)). q(7) :- print(5).           ids consumed, output written *)
Definition C01sld_at (c : N) : term := TAtom [c].
Definition C01sld_V (i c : N) : term := TVar i [36; c].
Definition C01sld_fact (p : N) (a : term) : rule := mkRule (TComplex [C01sld_at p; a]) GNil.
Definition C01sld_kb : kbase :=
  [([99; 47; 49], [C01sld_fact 99 (TInt 1); C01sld_fact 99 (TInt 2)]);
   ([100; 47; 49], [C01sld_fact 100 (TInt 7); C01sld_fact 100 (TInt 8)]);
   ([112; 47; 49], [C01sld_fact 112 (TComplex [C01sld_at 102; C01sld_V 0 65]);
                    C01sld_fact 112 (TComplex [C01sld_at 103; C01sld_V 0 66])]);
   ([113; 47; 49], [C01sld_fact 113 (TComplex [C01sld_at 104; C01sld_V 0 67]);
                    mkRule (TComplex [C01sld_at 113; TInt 7]) (GBip n_print (Some [TInt 5]))])].
Definition C01sld_X : term := C01sld_V 1 88.
Definition C01sld_Y : term := C01sld_V 2 89.
Definition C01sld_call (p : N) (a : term) : goal := GCall (TComplex [C01sld_at p; a]).
Definition C01sld_c := C01sld_call 99 C01sld_X.
Definition C01sld_d := C01sld_call 100 C01sld_Y.
Definition C01sld_p := C01sld_call 112 C01sld_X.
Definition C01sld_q := C01sld_call 113 C01sld_Y.
Definition C01sld_w : world := mkWorld 2 false None [].
(* the values of $X and $Y in each answer, the final id counter and the output *)
Definition C01sld_vals (r : res ares) : list (res (option term) * res (option term)) * N * str :=
  match r with
  | Ok (l, w) => (map (fun s => (get_ground_term 20 C01sld_X s, get_ground_term 20 C01sld_Y s)) l, next_id w, out w)
  | _ => ([], 0, [])
  end.
Definition C01sld_i (z : Z) : res (option term) := Ok (Some (TInt z)).
Definition C01sld_f (f i c : N) : res (option term) := Ok (Some (TComplex [C01sld_at f; C01sld_V i c])).

Example C01sld_kb_cutfree : cutfree_kb C01sld_kb = true.
Proof. vm_compute. reflexivity. Qed.

Example C01sld_c_answers : C01sld_vals (answers C01sld_kb 50 20 C01sld_c [] C01sld_w)
  = ([(C01sld_i 1, Ok None); (C01sld_i 2, Ok None)], 2, []).
Proof. vm_compute. reflexivity. Qed.
Example C01sld_d_answers : C01sld_vals (answers C01sld_kb 50 20 C01sld_d [] C01sld_w)
  = ([(Ok None, C01sld_i 7); (Ok None, C01sld_i 8)], 2, []).
Proof. vm_compute. reflexivity. Qed.
(* the conjunction: for each answer of c, the answers of d; the disjunction: append *)
Example C01sld_and_answers :
  C01sld_vals (answers C01sld_kb 50 20 (GOp OAnd [C01sld_c; C01sld_d]) [] C01sld_w)
  = ([(C01sld_i 1, C01sld_i 7); (C01sld_i 1, C01sld_i 8); (C01sld_i 2, C01sld_i 7); (C01sld_i 2, C01sld_i 8)], 2, []).
Proof. vm_compute. reflexivity. Qed.
Example C01sld_or_answers :
  C01sld_vals (answers C01sld_kb 50 20 (GOp OOr [C01sld_c; C01sld_d]) [] C01sld_w)
  = ([(C01sld_i 1, Ok None); (C01sld_i 2, Ok None); (Ok None, C01sld_i 7); (Ok None, C01sld_i 8)], 2, []).
Proof. vm_compute. reflexivity. Qed.

(* with variables in the clauses and output: both sides of the conjunction law, computed *)
Example C01sld_and_law_lhs :
  C01sld_vals (answers C01sld_kb 50 20 (GOp OAnd [C01sld_p; C01sld_q]) [] C01sld_w)
  = ([(C01sld_f 102 3 65, C01sld_f 104 4 67); (C01sld_f 102 3 65, C01sld_i 7);
      (C01sld_f 103 5 66, C01sld_f 104 6 67); (C01sld_f 103 5 66, C01sld_i 7)], 6, [53; 53]).
Proof. vm_compute. reflexivity. Qed.
Example C01sld_and_law_instance :
  answers C01sld_kb 50 20 (GOp OAnd [C01sld_p; C01sld_q]) [] C01sld_w
  = seach (sld C01sld_kb 50 19 C01sld_p [] C01sld_w)
          (fun s1 w1 => answers C01sld_kb 50 19 (GOp OAnd [C01sld_q]) s1 w1).
Proof. vm_compute. reflexivity. Qed.
Example C01sld_or_law_instance :
  C01sld_vals (answers C01sld_kb 50 20 (GOp OOr [C01sld_p; C01sld_q]) [] C01sld_w)
  = ([(C01sld_f 102 3 65, Ok None); (C01sld_f 103 4 66, Ok None);
      (Ok None, C01sld_f 104 5 67); (Ok None, C01sld_i 7)], 5, [53])
  /\ C01sld_vals (answers C01sld_kb 50 19 C01sld_p [] C01sld_w)
     = ([(C01sld_f 102 3 65, Ok None); (C01sld_f 103 4 66, Ok None)], 4, [])
  /\ C01sld_vals (answers C01sld_kb 50 19 (GOp OOr [C01sld_q]) [] (mkWorld 4 false None []))
     = ([(Ok None, C01sld_f 104 5 67); (Ok None, C01sld_i 7)], 5, [53]).
Proof. vm_compute. repeat split. Qed.

(* p($X), print(5): the answers of p($X) as they are (ids 3 and 4), the output written twice *)
Example C01sld_and_bip :
  C01sld_vals (answers C01sld_kb 50 20 (GOp OAnd [C01sld_p; GBip n_print (Some [TInt 5])]) [] C01sld_w)
  = ([(C01sld_f 102 3 65, Ok None); (C01sld_f 103 4 66, Ok None)], 4, [53; 53]).
Proof. vm_compute. reflexivity. Qed.

(* the law with the answers of g1 as a plain LIST (g1 run to the end first, then g2 on each answer,
   the world threaded) is false: the second answer of p is renamed at a different counter *)
Fixpoint C01sld_list_bind (l : list subst) (w : world) (f : subst -> world -> res ares) : res ares :=
  match l with
  | [] => Ok ([], w)
  | s :: r =>
      do x <- f s w; let '(a1, w1) := x in
      do y <- C01sld_list_bind r w1 f; let '(a2, w2) := y in Ok (a1 ++ a2, w2)
  end.
Example C01sld_naive_list_law_is_false :
  C01sld_vals (do x <- answers C01sld_kb 50 19 C01sld_p [] C01sld_w; let '(l, w) := x in
               C01sld_list_bind l w (fun s1 w1 => answers C01sld_kb 50 19 C01sld_q s1 w1))
  = ([(C01sld_f 102 3 65, C01sld_f 104 5 67); (C01sld_f 102 3 65, C01sld_i 7);
      (C01sld_f 103 4 66, C01sld_f 104 6 67); (C01sld_f 103 4 66, C01sld_i 7)], 6, [53; 53]).
Proof. vm_compute. reflexivity. Qed.

Print Assumptions C01_sld_continuation.
Print Assumptions C01_sld_continuation_clauses.
Print Assumptions C01_sld_continuation_go.
Print Assumptions C01_sld_continuation_pure.
Print Assumptions C01_sld_answers.
Print Assumptions C01_sld_conjunction.
Print Assumptions C01_sld_conjunction_k.
Print Assumptions C01_sld_disjunction.
Print Assumptions C01_sld_call.
Print Assumptions C01_sld_clauses.
Print Assumptions C01_sld_signal_go.
Print Assumptions C01_sld_continuation_quiet.
Print Assumptions C01_sld_conjunction_quiet.
Print Assumptions C01_sld_conjunction_bip.
Print Assumptions C01_sld_conjunction_1.
Print Assumptions C01_sld_disjunction_1.

(* C21 - Loading a file equals parsing its rules one by one.

   Model: Model/Reader.v (src/rule_reader.rs after the six `fix:` commits, `parse_rule` a
   parameter).  Specification: Spec/SpecLoad.v (`render layout texts`, `legal`, `wf_text`,
   `expected`, `cut_equiv`).

   Proved for ALL rule texts and ALL layouts satisfying the decidable side conditions:
     C21_load_spec            reading the rendered file gives exactly the rule texts, each with its
                              pieces trimmed and one space at every line break - never an error,
                              never another list; and that list equals the given texts up to white
                              space after the continuation characters where the lines were broken
     C21_load_never_invents   the form "Ok texts' (equal up to that white space) or an error"
     C21_load_kb              load_kb_from_file = parse_rule + add_rules over those texts, in order
     C21_load_kb_exact        ... = over the ORIGINAL texts, for every parser, when each line break
                              stands in front of a single space of the text
     C21_load_kb_each         ... = over the original texts, if the parser gives the same result for
                              a text and its respaced form (hypothesis on the parser; not proved
                              here: parse_rule is modelled elsewhere; tested by the oracle of gen/C21.py)
     C21_reader_total etc.    no reader function panics on any input; there is no fuel
     C21_separate_rules_partition   for EVERY text, what separate_rules returns is the text cut
                              into consecutive pieces (nothing invented, dropped or reordered)
   `C21_full` (below) is the statement with the real parser; what is missing for it is named there. *)
From Suiron Require Import Model.Reader Spec.SpecLoad Proofs.ReaderProofs.
From Coq Require Import String.
Open Scope N_scope.

Theorem C21_load_spec : forall L texts,
  legal L texts = true -> forallb wf_text texts = true ->
  read_facts_and_rules (render L texts) = Ok (ROk (expected (lay_rules L) texts)) /\
  Forall2 cut_equiv texts (expected (lay_rules L) texts).
Proof. exact load_spec. Qed.

Theorem C21_load_never_invents : forall L texts r,
  legal L texts = true -> forallb wf_text texts = true ->
  read_facts_and_rules (render L texts) = Ok r ->
  match r with
  | ROk texts' => Forall2 cut_equiv texts texts'
  | RErr _ => True
  end.
Proof.
  intros L texts r HL Hwf H. destruct (load_spec L texts HL Hwf) as [E Hc].
  rewrite E in H. inversion H; subst. exact Hc.
Qed.

Theorem C21_load_kb : forall parse_rule L texts kb,
  legal L texts = true -> forallb wf_text texts = true ->
  load_kb_from_file parse_rule kb (render L texts) =
  lk_loop parse_rule (expected (lay_rules L) texts) kb.
Proof. exact load_kb_spec. Qed.

Theorem C21_load_kb_exact : forall parse_rule L texts kb,
  legal L texts = true -> forallb wf_text texts = true ->
  exact_layout (lay_rules L) texts = true ->
  load_kb_from_file parse_rule kb (render L texts) = lk_loop parse_rule texts kb.
Proof. exact load_kb_exact. Qed.

Theorem C21_load_kb_each : forall parse_rule L texts kb,
  legal L texts = true -> forallb wf_text texts = true ->
  Forall2 (fun t t' => parse_rule t = parse_rule t') texts (expected (lay_rules L) texts) ->
  load_kb_from_file parse_rule kb (render L texts) = lk_loop parse_rule texts kb.
Proof. exact load_kb_each. Qed.

(* The full statement: for the model of the real `parse_rule` and layouts whose line breaks
   stand between tokens.  Not proved in this generality: it needs that white space between
   tokens does not change the parsed rule (`token_breaks` would be stated with the tokenizer);
   with that `C21_load_kb_each` gives it at once.  Properties/C21.v and C21layout.v prove it
   for Model/Api.api_parse_rule, closed rules and layouts that leave the texts as they are. *)
Definition C21_full (parse_rule : str -> res (presult rule))
                    (token_breaks : layout -> list str -> Prop) : Prop :=
  forall L texts kb,
    legal L texts = true -> forallb wf_text texts = true -> token_breaks L texts ->
    load_kb_from_file parse_rule kb (render L texts) = lk_loop parse_rule texts kb.

(* totality: every reader function returns (no Panic; the model has no fuel) *)
Theorem C21_reader_total : forall lines, exists r, read_facts_and_rules lines = Ok r.
Proof.
  intro lines. unfold read_facts_and_rules. destruct (rf_loop_total lines 1 [] 0%Z 0%Z) as [r E]. rewrite E. cbn [bind].
  destruct r as [ll|msg]; [|eexists; reflexivity].
  destruct (separate_rules_total ll) as [s Es]. rewrite Es. cbn [bind]. destruct s; eexists; reflexivity.
Qed.

Theorem C21_strip_comments_total : forall line rd sd, exists r, strip_comments_at line rd sd = Ok r.
Proof. exact strip_comments_at_total. Qed.

Theorem C21_separate_rules_total : forall text, exists r, separate_rules text = Ok r.
Proof. exact separate_rules_total. Qed.

Theorem C21_check_last_char_total : forall line n, exists r, check_last_char line n = Ok r.
Proof. exact check_last_char_total. Qed.

Theorem C21_unmatched_bracket_total : forall line rd sd, exists r, unmatched_bracket line rd sd = Ok r.
Proof. exact unmatched_bracket_total. Qed.

Theorem C21_trim_error_line_total : forall chrs, exists r, trim_error_line chrs = Ok r.
Proof. exact trim_error_line_total. Qed.

(* for every text at all: the rules returned are consecutive pieces of the text *)
Theorem C21_separate_rules_partition : forall text rules,
  separate_rules text = Ok (ROk rules) ->
  exists rest, all_ws rest = true /\ List.concat rules ++ rest = text.
Proof. exact separate_rules_partition. Qed.

(* the hypotheses are satisfiable by a non-trivial program: a float literal, an infix `=`
   broken after the `=`, a quoted atom with a period and a comment delimiter, comments,
   indentation, a blank line, a line break inside parentheses *)
Definition ex_texts : list str :=
  [s2l "p($X) :- $X = 1.5, q(""a. b # c""), r(1)."; s2l "q(a, [b, c])."].

Definition ex_layout : layout :=
  let d0 := mkDeco [] [] [] [] in
  mkLayout
    [ (mkDeco [mkBlank [] (s2l "# facts and rules"); mkBlank (s2l "  ") []] [] (s2l " ") (s2l "% head"),
       [(8%nat, mkDeco [] (s2l "    ") [] []);
        (5%nat, mkDeco [mkBlank (s2l "    ") (s2l "// a float")] (s2l "       ") [] []);
        (5%nat, mkDeco [] (s2l "    ") [9] (s2l "# the rest"))]);
      (d0, [(4%nat, mkDeco [] (s2l "  ") [] (s2l "// done"))]) ]
    [mkBlank [] (s2l "% end")].

Example C21_example :
  legal ex_layout ex_texts = true /\
  forallb wf_text ex_texts = true /\
  exact_layout (lay_rules ex_layout) ex_texts = true /\
  render ex_layout ex_texts =
    [ s2l "# facts and rules";
      s2l "  ";
      s2l "p($X) :- % head";
      s2l "     $X =";
      s2l "    // a float";
      s2l "        1.5,";
      s2l "     q(""a. b # c""), r(1)." ++ [9] ++ s2l "# the rest";
      s2l "q(a,";
      s2l "   [b, c]).// done";
      s2l "% end" ] /\
  read_facts_and_rules (render ex_layout ex_texts) = Ok (ROk ex_texts).
Proof. vm_compute. repeat split. Qed.

(* the boundary of the domain: a bracket between quotes, an escaped bracket and a period that
   is not a decimal point inside an atom are not rule texts in the sense of wf_text *)
Example C21_outside_domain :
  wf_text (s2l "p(""("").") = false /\ wf_text (s2l "a(\().") = false /\
  wf_text (s2l "v(1) :- $X = e.g, r.") = false /\ wf_text (s2l "p($X) :- $X = 50% , q.") = false.
Proof. vm_compute. repeat split. Qed.

Check C21_load_spec : forall L texts,
  legal L texts = true -> forallb wf_text texts = true ->
  read_facts_and_rules (render L texts) = Ok (ROk (expected (lay_rules L) texts)) /\
  Forall2 cut_equiv texts (expected (lay_rules L) texts).
Check C21_reader_total : forall lines, exists r, read_facts_and_rules lines = Ok r.
Check C21_load_kb_exact : forall parse_rule L texts kb,
  legal L texts = true -> forallb wf_text texts = true ->
  exact_layout (lay_rules L) texts = true ->
  load_kb_from_file parse_rule kb (render L texts) = lk_loop parse_rule texts kb.

Print Assumptions C21_load_spec.
Print Assumptions C21_load_never_invents.
Print Assumptions C21_load_kb.
Print Assumptions C21_load_kb_exact.
Print Assumptions C21_load_kb_each.
Print Assumptions C21_reader_total.
Print Assumptions C21_strip_comments_total.
Print Assumptions C21_separate_rules_total.
Print Assumptions C21_check_last_char_total.
Print Assumptions C21_unmatched_bracket_total.
Print Assumptions C21_trim_error_line_total.
Print Assumptions C21_separate_rules_partition.

(* C10 - Renaming apart changes only variables, consistently. *)
From Suiron Require Import Model.Term Model.Subst Model.Rename Spec.SpecLists Proofs.RenameProofs.
Open Scope N_scope.

(* `erase x` forgets variable ids and nothing else; `rvars r` lists the variable occurrences
   (id, name) of a rule; `consistent occ`: same name <-> same id; `fresh_between lo hi occ`:
   every id is > lo and <= hi.  (Definitions in Proofs/RenameProofs.v.) *)

(* Every clause fetch (get_rule: clone, rename with an empty map, advance the counter):
   nothing but ids changes - atoms, numbers, list nodes including [], counts and tail
   markers, goal structure are the stored rule's -, occurrences of one name get one id,
   different names different ids, and every id is fresh: above the counter before the
   fetch, at most the counter after it. *)
Theorem C10_get_rule : forall kb pred i ctr r' ctr',
  get_rule kb pred i ctr = Ok (r', ctr') ->
  exists r rules, kb_get kb pred = Some rules /\ nth_error rules (N.to_nat i) = Some r /\
    erase_rule r' = erase_rule r /\ ctr <= ctr' /\
    consistent (rvars r') /\ fresh_between ctr ctr' (rvars r').
Proof. exact get_rule_spec. Qed.

(* Queries built by make_query: the same, with ids 1 .. counter. *)
Theorem C10_make_query : forall ts g ctr,
  make_query ts = Ok (g, ctr) ->
  exists ts', g = GCall (TComplex ts') /\ map erase ts' = map erase ts /\
    consistent (flat_map tvars ts') /\ fresh_between 0 ctr (flat_map tvars ts').
Proof. exact make_query_spec. Qed.

(* The building blocks, for any renaming state (used repeatedly / with a shared map): *)
Theorem C10_term : forall t st t' st', rename_term t st = (t', st') -> good_term t st t' st'.
Proof. exact rename_term_good. Qed.
Theorem C10_goal : forall g st g' st', rename_goal g st = Ok (g', st') -> good_goal g st g' st'.
Proof. exact rename_goal_good. Qed.
Theorem C10_rule : forall r st r' st', rename_rule r st = Ok (r', st') -> good_rule r st r' st'.
Proof. exact rename_rule_good. Qed.

(* List shapes survive: a renamed well-formed list is a well-formed list with the renamed
   elements, the same length and the same tail-ness (in particular [] stays []). *)
Theorem C10_list_shape : forall l st l' st' xs tl,
  rename_term l st = (l', st') -> elems l = Some (xs, tl) ->
  exists xs' tl', elems l' = Some (xs', tl') /\ map erase xs' = map erase xs /\
                  option_map erase tl' = option_map erase tl.
Proof.
  intros l st l' st' xs tl.
  intros H He. destruct (rename_term_good _ _ _ _ H) as (Her & _).
  pose proof (elems_erase l') as E1. rewrite Her, elems_erase, He in E1. simpl in E1.
  destruct (elems l') as [[xs' tl']|]; [|discriminate]. simpl in E1. inversion E1. eauto.
Qed.

(* non-vacuity: g($X) :- $X = [], p($X, $Y, [$Y | $X]).  fetched at counter 7 *)
Example C10_witness :
  let X := TVar 0 [36; 88] in let Y := TVar 0 [36; 89] in
  let r := mkRule (TComplex [TAtom [103]; X])
                  (GOp OAnd [GBip [117] (Some [X; empty_list]);
                             GCall (TComplex [TAtom [112]; X; Y; TList Y (TList X empty_list 1 true) 2 false])]) in
  exists r', get_rule [([103; 47; 49], [r])] [103; 47; 49] 0 7 = Ok (r', 9) /\
             rvars r' = [(8, [36; 88]); (8, [36; 88]); (8, [36; 88]); (9, [36; 89]); (9, [36; 89]); (8, [36; 88])].
Proof. eexists. vm_compute. split; reflexivity. Qed.

Check C10_get_rule : forall kb pred i ctr r' ctr',
  get_rule kb pred i ctr = Ok (r', ctr') ->
  exists r rules, kb_get kb pred = Some rules /\ nth_error rules (N.to_nat i) = Some r /\
    erase_rule r' = erase_rule r /\ ctr <= ctr' /\
    consistent (rvars r') /\ fresh_between ctr ctr' (rvars r').

Print Assumptions C10_get_rule.
Print Assumptions C10_make_query.
Print Assumptions C10_term.
Print Assumptions C10_goal.
Print Assumptions C10_rule.
Print Assumptions C10_list_shape.

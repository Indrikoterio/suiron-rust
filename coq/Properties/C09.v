(* C09 - The anonymous variable matches anything and never binds. *)
From Suiron Require Import Model.Term Model.Subst Model.Unify Proofs.UnifyInv Proofs.UnifyProps.

(* `x = $_` and `$_ = x` succeed for every x whatsoever (unbound variables, functions,
   malformed terms included) and return the substitution set itself: no binding is created
   or changed, so a sequence of unifications behaves as if those steps were not there. *)
Theorem C09_anon_right : forall fuel a ss, unify (S fuel) a TAnon ss = Ok (Some ss).
Proof.
  intros fuel a ss.
  simpl. unfold unify_body. destruct (term_eqb a TAnon); reflexivity. 
Qed.

Theorem C09_anon_left : forall fuel b ss, unify (S fuel) TAnon b ss = Ok (Some ss).
Proof.
  intros fuel b ss.
  simpl. unfold unify_body. destruct (term_eqb TAnon b); [reflexivity|].
  destruct (is_anon b); reflexivity.
Qed.

(* As an argument of a complex term `$_` constrains nothing: the argument position is
   skipped, on whichever side it stands. *)
Theorem C09_anon_argument_left : forall rec pre pre' t post post' s s2,
  length pre = length pre' ->
  unify_args rec (pre ++ TAnon :: post) (pre' ++ t :: post') s s2 =
  unify_args rec (pre ++ post) (pre' ++ post') s s2.
Proof. intros. now apply unify_args_skip. Qed.

Theorem C09_anon_argument_right : forall rec pre pre' t post post' s s2,
  length pre = length pre' ->
  unify_args rec (pre ++ t :: post) (pre' ++ TAnon :: post') s s2 =
  unify_args rec (pre ++ post) (pre' ++ post') s s2.
Proof. intros. apply unify_args_skip; [assumption|apply orb_true_r]. Qed.

(* No run of unify ever makes `$_` the value of a variable — wherever `$_` occurs in the
   two terms (argument, list element, list tail, nested). *)
Theorem C09_never_bound : forall fuel a b ss ss',
  wf_term a = true -> wf_term b = true -> wf_ss ss ->
  unify fuel a b ss = Ok (Some ss') -> no_anon_binding ss -> no_anon_binding ss'.
Proof. exact unify_never_binds_anon. Qed.

(* ... hence none over any sequence of unifications starting from the empty set *)
Theorem C09_never_bound_seq : forall fuel pairs ss',
  wf_pairs pairs -> unify_seq fuel pairs [] = Ok (Some ss') -> no_anon_binding ss'.
Proof.
  intros fuel pairs ss' Hw H.
  destruct (unify_seq_invariants fuel pairs [] ss' Hw (ss_all_nil _) H) as (_ & _ & _ & Hn).
  apply Hn, no_anon_nil.
Qed.

Check C09_anon_right : forall fuel a ss, unify (S fuel) a TAnon ss = Ok (Some ss).
Check C09_anon_left : forall fuel b ss, unify (S fuel) TAnon b ss = Ok (Some ss).

Print Assumptions C09_anon_right.
Print Assumptions C09_anon_left.
Print Assumptions C09_anon_argument_left.
Print Assumptions C09_anon_argument_right.
Print Assumptions C09_never_bound.
Print Assumptions C09_never_bound_seq.

(* C01-C04, the converse direction of the refinement theorem (Proofs/RefineCut.v, refines_cut):
   the hypothesis there that the reference search of Spec/SpecCut.v FINISHES is not needed - it
   follows from the engine finishing.

   PROVED (Proofs/RefineCutConverse.v), for every knowledge base, query, world and fuels: if asking
   the query's node until it reports no answer finishes with R', then
     - the reference search finishes for some fuel with exactly R' (answers in order, final
       world), or it REFUSES the program (Panic)                          (C01_converse);
     - it refuses only programs with a cut directly inside not(..) / time(..): if no clause body
       contains one (`kbokb`, decidable) the reference search finishes with R'  (C01_converse_ok).
   The engine itself accepts such programs (witness below: it gives 4 answers where the reference
   refuses - by design: cut inside not/time is outside the documented behaviour). *)
From Coq Require Import String Lia.
From Suiron Require Import Model.Term Model.Subst Model.Unify Model.Builtins Model.Rename Model.Solve
  Spec.SpecCut Proofs.RefineCut Proofs.NotCutInv Proofs.RefineCutConverse.
Open Scope N_scope.

Theorem C01_converse : forall kb bf q w nd w1 m F R',
  make_base_node kb (GCall q) w = Ok (nd, w1) -> ask_all kb bf m F nd w1 = Ok R' ->
  (exists fs, canswers kb bf fs q w = Ok R') \/ (exists fs, canswers kb bf fs q w = Panic).
Proof. exact refines_cut_converse. Qed.

Theorem C01_converse_ok : forall kb bf q w nd w1 m F R',
  kbokb kb = true ->
  make_base_node kb (GCall q) w = Ok (nd, w1) -> ask_all kb bf m F nd w1 = Ok R' ->
  exists fs, canswers kb bf fs q w = Ok R'.
Proof. intros kb bf q w nd w1 m F R' H. apply refines_cut_converse_ok. now apply kbokb_kbok. Qed.

(* both directions together: for programs without a cut directly inside not/time, draining the
   engine and running the reference search are the same thing *)
Theorem C01_both : forall kb bf q w nd w1 m F R',
  kbokb kb = true -> make_base_node kb (GCall q) w = Ok (nd, w1) ->
  (ask_all kb bf m F nd w1 = Ok R' -> exists fs, canswers kb bf fs q w = Ok R') /\
  (forall fs R, canswers kb bf fs q w = Ok R -> ask_all kb bf m F nd w1 = Ok R' -> R' = R).
Proof.
  intros kb bf q w nd w1 m F R' Hk Hm. split.
  - intro Hd. eapply C01_converse_ok; eauto.
  - intros fs R Hc Hd. eapply refines_cut; eauto.
Qed.

(* ---- the refusal is real: p :- not((r, !)), q.  p :- q.  q.  q.  r :- fail. ---- *)
Definition at_ (s : string) := TAtom (s2l s).
Definition c0 (s : string) := TComplex [at_ s].
Definition call0 s := GCall (c0 s).
Definition kbx : kbase :=
  [(s2l "p/0", [mkRule (c0 "p") (GOp OAnd [GOp ONot [GOp OAnd [call0 "r"; GBip n_cut None]]; call0 "q"]);
                mkRule (c0 "p") (call0 "q")]);
   (s2l "q/0", [mkRule (c0 "q") GNil; mkRule (c0 "q") GNil]);
   (s2l "r/0", [mkRule (c0 "r") (GBip n_fail None)])].

Lemma canswers_rle kb bf f f' q w : (f <= f')%nat -> rle (canswers kb bf f q w) (canswers kb bf f' q w).
Proof.
  intro L. unfold canswers. apply rle_bind; [|intro; apply rle_refl].
  apply csolve_rle; [exact L|apply kle_refl].
Qed.

(* the engine: make the query's node, drain it, count the answers *)
Definition drained : res nat :=
  match make_base_node kbx (GCall (c0 "p")) world0 with
  | Ok (nd, w1) =>
      match ask_all kbx 20 20 40 nd w1 with
      | Ok (a, _) => Ok (length a)
      | Panic => Panic
      | OutOfFuel => OutOfFuel
      end
  | _ => Panic
  end.

Example refused :
  kbokb kbx = false /\ drained = Ok 4%nat /\
  (forall fs R, canswers kbx 20 fs (c0 "p") world0 <> Ok R).
Proof.
  split; [vm_compute; reflexivity|]. split; [vm_compute; reflexivity|].
  assert (canswers kbx 20 40 (c0 "p") world0 = Panic) as HP by (vm_compute; reflexivity).
  intros fs R H.
  destruct (Nat.le_ge_cases fs 40) as [L|L]; destruct (canswers_rle kbx 20 _ _ (c0 "p") world0 L) as [E|E];
    rewrite ?H, ?HP in E; discriminate E.
Qed.

Print Assumptions C01_converse.
Print Assumptions C01_converse_ok.
Print Assumptions refused.

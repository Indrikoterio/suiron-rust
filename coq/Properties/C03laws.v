(* C03, laws of the reference search (Spec/SpecCut.v) for not(..) and time(..), for cut-free programs,
   stated with the direct-style stream-of-successes interpreter `sld` of Proofs/SldOrder.v (which the
   reference equals at every fuel: Properties/C01laws.v):
     not(g)  = g has no answer -> exactly one answer, the substitution it was entered with (no binding
               made while searching g survives); g has an answer -> no answer; g is asked for its first
               answer only, and the world is the one reached at that point;
     time(g) = g's first answer only (or none), then the elapsed-time text is written. *)
From Suiron Require Import Model.Term Model.Subst Model.Solve Model.Builtins Model.Rename Spec.SpecCut
  Proofs.CutOnce Proofs.SldOrder.
Open Scope N_scope.

Theorem C03_not_law : forall kb bf, cutfree_kb kb = true ->
  forall f g1 s w, cutfree g1 = true ->
  answers kb bf (S f) (GOp ONot [g1]) s w =
  match sld kb bf f g1 s w with
  | SNil w1 => Ok ([s], w1)
  | SCons _ w1 _ => Ok ([], w1)
  | SPanic => Panic
  | SOut => OutOfFuel
  end.
Proof.
  intros kb bf Hkb f g1 s w Hg.
  rewrite (answers_sld kb bf Hkb (S f) (GOp ONot [g1]) s w) by (cbn [cutfree]; now rewrite Hg).
  rewrite sld_S. cbn [sld_body]. destruct (sld kb bf f g1 s w); reflexivity.
Qed.

Theorem C03_time_law : forall kb bf, cutfree_kb kb = true ->
  forall f g1 s w, cutfree g1 = true ->
  answers kb bf (S f) (GOp OTime [g1]) s w =
  match sld kb bf f g1 s w with
  | SNil w1 => Ok ([], w_print w1 elapsed_token)
  | SCons s1 w1 _ => Ok ([s1], w_print w1 elapsed_token)
  | SPanic => Panic
  | SOut => OutOfFuel
  end.
Proof.
  intros kb bf Hkb f g1 s w Hg.
  rewrite (answers_sld kb bf Hkb (S f) (GOp OTime [g1]) s w) by (cbn [cutfree]; now rewrite Hg).
  rewrite sld_S. cbn [sld_body]. destruct (sld kb bf f g1 s w); reflexivity.
Qed.

(* non-vacuity.  n(1). n(2).   not(n(3)) has exactly one answer, the empty substitution it was entered with;
   not(n($X)) has none (and $X is not bound by anything: there is no answer to carry a binding) *)
Example C03_laws_witness :
  let kb : kbase := [([110; 47; 49], [mkRule (TComplex [TAtom [110]; TInt 1]) GNil; mkRule (TComplex [TAtom [110]; TInt 2]) GNil])] in
  let w := mkWorld 1 false None [] in
  cutfree_kb kb = true /\
  (exists w1, answers kb 20 20 (GOp ONot [GCall (TComplex [TAtom [110]; TInt 3])]) [] w = Ok ([[]], w1)) /\
  (exists w1, answers kb 20 20 (GOp ONot [GCall (TComplex [TAtom [110]; TVar 1 [36; 88]])]) [] w = Ok ([], w1)).
Proof. cbn zeta. split; [reflexivity|]. split; eexists; vm_compute; reflexivity. Qed.

Print Assumptions C03_not_law.
Print Assumptions C03_time_law.

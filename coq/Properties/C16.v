(* C16 - append concatenates the elements of its arguments. *)
From Suiron Require Import Model.Term Model.Subst Model.Lists Model.Unify Model.Builtins
  Spec.SpecCompare Spec.SpecLists Proofs.ListProofs.

(* `Contrib ss t xs` (Spec/SpecLists.v): what input argument t contributes under the
   bindings ss - the elements of the list it resolves to, continuing through a tail variable
   bound to a list (`Elements`), or the single non-list value it resolves to.

   For all inputs, contributions, output terms and substitutions: once every input has its
   contribution, append unifies the output argument with the list that holds EXACTLY the
   concatenated contributions (C15_list_of_terms_exact), and that is all it does. *)
Theorem C16_append_spec : forall ss inputs cs out,
  inputs <> [] -> Forall2 (Contrib ss) inputs cs ->
  exists f0, forall f, (f0 <= f)%nat ->
    bip_append f (Some (inputs ++ [out])) ss = unify f out (make_list_of_terms (concat cs)) ss.
Proof. exact bip_append_spec. Qed.

(* The traversal behind it yields exactly the elements the specification names. *)
Theorem C16_traversal : forall ss keep l xs,
  Elements ss keep l xs ->
  forall x nx c tv, l = TList x nx c tv -> (tv = false \/ is_nil x = true) ->
  exists f0, forall f, (f0 <= f)%nat -> walk f (negb keep) x nx ss = Ok xs.
Proof. intros ss keep l xs H x nx c tv E _. eapply walk_Elements; eauto. Qed.

(* non-vacuity: $T = [q], append([a | $T], [z], b, $Out) binds $Out to [a, q, z, b] *)
Example C16_witness :
  let a := TAtom [97] in let q := TAtom [113] in let z := TAtom [122] in let b := TAtom [98] in
  let T := TVar 1 [36; 84] in let Out := TVar 2 [36; 79] in
  let ss := [None; Some (make_list_of_terms [q])] in
  Contrib ss (make_linked_list true [a; T]) [a; q] /\
  bip_append 20 (Some [make_linked_list true [a; T]; make_list_of_terms [z]; b; Out]) ss
    = Ok (Some [None; Some (make_list_of_terms [q]); Some (make_list_of_terms [a; q; z; b])]).
Proof.
  split; [|vm_compute; reflexivity].
  eapply Contrib_list; [constructor; reflexivity|reflexivity|].
  eapply (El_bound _ _ _ [TAtom [97]] (TVar 1 [36; 84]) (make_list_of_terms [TAtom [113]]) [TAtom [113]]);
    try reflexivity; try discriminate.
  - eapply chain_step; [reflexivity|]. constructor. reflexivity.
  - apply El_closed. reflexivity.
Qed.

Check C16_append_spec : forall ss inputs cs out,
  inputs <> [] -> Forall2 (Contrib ss) inputs cs ->
  exists f0, forall f, (f0 <= f)%nat ->
    bip_append f (Some (inputs ++ [out])) ss = unify f out (make_list_of_terms (concat cs)) ss.

Print Assumptions C16_append_spec.
Print Assumptions C16_traversal.

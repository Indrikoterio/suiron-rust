(* C17 - count, include/exclude, functor and join compute documented results. *)
From Coq Require Import String.
From Suiron Require Import Model.Term Model.Subst Model.Show Model.Lists Model.Unify Model.Builtins
  Spec.SpecCompare Spec.SpecLists Proofs.ListProofs.

(* count: the number of elements, continuing through bound tail variables (a tail variable
   that is unbound or bound to a non-list is not an element; a `$_` tail is one), unified
   with the output argument. *)
Theorem C17_count : forall ss t l xs out,
  chain ss t (Some l) -> is_list l = true -> Elements ss false l xs ->
  exists f0, forall f, (f0 <= f)%nat ->
    bip_count f (Some [t; out]) ss = unify f out (TInt (Z.of_nat (length xs))) ss.
Proof.
  intros ss t l xs out Hc Hl He. destruct (count_terms_spec _ _ _ _ Hc Hl He) as [f0 Hf0]. exists f0.
  intros f Hf. unfold bip_count. now rewrite Hf0.
Qed.

(* include / exclude: the elements that do / do not unify with the pattern, in order, built
   exactly (C15), unified with the output argument under the ORIGINAL substitution - the
   pattern tests bind nothing. *)
Theorem C17_filter : forall ss pat t l xs incl out,
  chain ss t (Some l) -> is_list l = true -> Elements ss true l xs ->
  exists f0, forall f, (f0 <= f)%nat -> forall kept,
    filter_terms f pat incl xs ss = Ok kept ->
    kept = List.filter (fun x => Bool.eqb (passes f pat x ss) incl) xs /\
    bip_filter f incl (Some [pat; t; out]) ss = unify f out (make_list_of_terms kept) ss.
Proof.
  intros ss pat t l xs incl out Hc Hl He. destruct (filter_spec ss pat t l xs incl Hc Hl He) as [f0 Hf0].
  exists f0. intros f Hf kept Hk. split; [now apply filter_terms_spec|].
  unfold bip_filter. now rewrite Hf0, Hk.
Qed.

(* functor: `prefix*` matches by prefix, anything else exactly; the arity argument gets the
   number of arguments. *)
Theorem C17_functor_prefix : forall f p, atoms_match (TAtom f) (p ++ [42%N]) = Ok (str_prefix p f).
Proof.
  intros f p.
  unfold atoms_match. rewrite rev_app_distr. simpl. now rewrite rev_involutive. 
Qed.
Theorem C17_prefix_means_prefix : forall p s, str_prefix p s = true <-> exists r, s = p ++ r.
Proof.
  induction p as [|x p IH]; intros s; simpl.
  - split; [eauto|reflexivity].
  - destruct s as [|y s]; [split; [discriminate|intros [r Hr]; discriminate]|].
    rewrite andb_true_iff, N.eqb_eq, IH. split.
    + intros [-> [r ->]]. eauto.
    + intros [r Hr]. inversion Hr; subst. eauto.
Qed.
Theorem C17_functor_exact : forall f m c, c <> 42%N ->
  atoms_match (TAtom f) (m ++ [c]) = Ok (str_eqb f (m ++ [c])).
Proof.
  intros f m c.
  intro Hc. unfold atoms_match. rewrite rev_app_distr. simpl.
  destruct (N.eqb_spec c 42); [contradiction|reflexivity].
Qed.
Theorem C17_functor_arity : forall f ss c o1 o2 fn args r1 r2,
  resolve_each f [c; o1; o2] ss = Ok [TComplex (fn :: args); r1; r2] ->
  bip_functor f (Some [c; o1; o2]) ss =
  do s1 <- match r1 with
           | TAtom ms => do m <- atoms_match fn ms; Ok (if m then Some ss else None)
           | TVar _ _ => unify f r1 fn ss
           | _ => Ok None
           end;
  match s1 with
  | Some s => unify f r2 (TInt (Z.of_nat (length args))) s
  | None => Ok None
  end.
Proof.
  intros f ss c o1 o2 fn args r1 r2.
  intro H. unfold bip_functor. cbn [length Nat.ltb Nat.leb orb]. rewrite H. reflexivity. 
Qed.

(* join: the resolved values of the arguments and of list elements, the first word as it
   is, every later word preceded by one space unless it is one of , . ? ! *)
Theorem C17_join : forall ss args cs, Forall2 (JoinArg ss) args cs ->
  exists f0, forall f, (f0 <= f)%nat ->
    evaluate_join f args ss = Ok (TAtom (join_spec (map show_term (concat cs)))).
Proof.
  intros ss args cs H. destruct (get_all_terms_spec _ _ _ H) as [f0 Hf0]. exists f0. intros f Hf.
  unfold evaluate_join. now rewrite Hf0, <- join_words_spec.
Qed.

Example C17_witness :
  let w s := TAtom (s2l s) in
  evaluate_join 9 [w "Would you like"; make_list_of_terms [w "coffee"; w ","; w "tea"]; w "?"]%string []
    = Ok (w "Would you like coffee, tea?"%string) /\
  bip_count 9 (Some [make_linked_list true [w "a"; TVar 1 []]; TVar 2 []]%string)
    [None; Some (make_list_of_terms [w "b"; w "c"]%string)]
    = Ok (Some [None; Some (make_list_of_terms [w "b"; w "c"]%string); Some (TInt 3)]).
Proof. vm_compute. split; reflexivity. Qed.

Check C17_count : forall ss t l xs out,
  chain ss t (Some l) -> is_list l = true -> Elements ss false l xs ->
  exists f0, forall f, (f0 <= f)%nat ->
    bip_count f (Some [t; out]) ss = unify f out (TInt (Z.of_nat (length xs))) ss.

Print Assumptions C17_count.
Print Assumptions C17_filter.
Print Assumptions C17_functor_prefix.
Print Assumptions C17_prefix_means_prefix.
Print Assumptions C17_functor_exact.
Print Assumptions C17_functor_arity.
Print Assumptions C17_join.

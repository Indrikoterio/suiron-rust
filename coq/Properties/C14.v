(* C14 - Comparison predicates follow numeric and lexicographic order. *)
From Suiron Require Import Model.Term Model.Subst Model.Compare Spec.SpecCompare Proofs.CompareProofs.

(* For every operand pair and every substitution: the predicate returns the *unchanged*
   substitution exactly when both operands resolve to constants that are ordered as the
   operator demands (atoms lexicographically, numbers numerically with integers converted
   when compared with a float); otherwise it fails.  Never a third outcome. *)
Theorem C14_compare_spec : forall fuel op a b ss r,
  bip_compare fuel op (Some [a; b]) ss = Ok r ->
  (r = Some ss /\ compare_holds (op_of op) a b ss) \/
  (r = None /\ ~ compare_holds (op_of op) a b ss).
Proof. exact bip_compare_spec. Qed.

Theorem C14_no_panic : forall fuel op a b ss, bip_compare fuel op (Some [a; b]) ss <> Panic.
Proof.
  intros fuel op a b ss.
  unfold bip_compare, get_two_constants.
  destruct (get_constant fuel a ss) as [[ca|]| |] eqn:Ea; simpl; try discriminate.
  - destruct (get_constant fuel b ss) as [[cb|]| |] eqn:Eb; simpl; try discriminate.
    now apply get_constant_no_panic in Eb.
  - now apply get_constant_no_panic in Ea.
Qed.

(* It finishes whenever following the bindings of both operands ends (no binding cycle). *)
Theorem C14_terminates : forall op a b ss ra rb,
  chain ss a ra -> chain ss b rb ->
  exists fuel r, bip_compare fuel op (Some [a; b]) ss = Ok r.
Proof. exact bip_compare_terminates. Qed.

Check C14_compare_spec : forall fuel op a b ss r,
  bip_compare fuel op (Some [a; b]) ss = Ok r ->
  (r = Some ss /\ compare_holds (op_of op) a b ss) \/
  (r = None /\ ~ compare_holds (op_of op) a b ss).

Print Assumptions C14_compare_spec.
Print Assumptions C14_no_panic.
Print Assumptions C14_terminates.

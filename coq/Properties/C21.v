(* C21 closed - end to end: a knowledge base printed rule by rule with Display and written to a
   file loads as exactly that knowledge base.

   For every list rs of closed rules (Properties/C19closed.v: heads f(t1, ..., tn) or f(); bodies
   built with conjunction / disjunction from calls, built-in predicates, `l = r`, !, fail, nl,
   not(..), time(..) over canonical terms) and every layout L of the texts `map rule_text rs`
   (rule_text r is what Display prints for r) that is
     - legal (Spec/SpecLoad.v: every line break stands, up to white space, after one of the
       continuation characters  -  ,  ;  = ; any indentation, trailing white space, blank lines and
       `#`, `%`, `//` comments outside parentheses and brackets), and
     - leaves the texts as they are when the reader puts one space at each line break:
       `expected (lay_rules L) texts = texts` - in particular every `exact_layout` of C21 (each
       break in front of the single space that follows the continuation character),
   load_kb_from_file with the REAL parse_rule (Model/Api.api_parse_rule: the real parse_subgoal and
   parse_complex, the fuel of C18) returns the knowledge base `add_rules kb rs` and no error.

   Proved on the way: the text of a closed rule is a rule text in the sense of C21 (`wf_text`:
   its only rule end is its last character, no comment delimiter outside brackets).

   The second hypothesis cannot be dropped: `legal` allows a break after ANY `-`, also the sign of
   a negative number, and the reader's space then changes the rule (Example
   break_after_minus_sign_changes_the_rule below: `p(-5).` written `p(-` / `5).` loads as p(- 5)
   with the atom `- 5`).  In the texts of closed rules every other continuation character is
   followed by exactly one space (`, `  `; `  ` = `  ` :- `), so the breaks that are excluded are
   those after a minus sign. *)
From Coq Require Import String.
From Suiron Require Import Model.Tokenizer Model.ParseRule Proofs.TokenizerProofs Proofs.GoalRoundtrip.
From Suiron Require Import Model.ParseTerm Model.ParseGoal Model.Show Model.ShowGoal Model.Api.
From Suiron Require Import Proofs.TermRoundtrip Proofs.TermRoundtripMain Proofs.GoalLeafParse
  Proofs.RuleRoundtripClosed Proofs.RuleRoundtripCheck Proofs.LoadLayout.
From Suiron Require Import Model.Reader Spec.SpecLoad Proofs.ReaderProofs.
Open Scope N_scope.
Open Scope string_scope.

Theorem C21_closed_load : forall rs L kb,
  Forall closed_rule rs ->
  legal L (map rule_text rs) = true ->
  expected (lay_rules L) (map rule_text rs) = map rule_text rs ->
  load_kb_from_file api_parse_rule kb (render L (map rule_text rs)) =
  (do kb' <- add_rules kb rs; Ok (kb', true)).
Proof. exact load_closed. Qed.

(* the same with a condition on the layout that is checked by eye: every line break of a rule stands
   right after `,` `;` `=` or the neck `:-` (never after the sign of a number); indentation, blank
   lines and comments as `legal` allows *)
Theorem C21_closed_load_layout : forall rs L kb,
  Forall closed_rule rs ->
  legal L (map rule_text rs) = true ->
  breaks_at_separators L (map rule_text rs) = true ->
  load_kb_from_file api_parse_rule kb (render L (map rule_text rs)) =
  (do kb' <- add_rules kb rs; Ok (kb', true)).
Proof. exact load_closed_layout. Qed.

Theorem C21_closed_load_exact : forall rs L kb,
  Forall closed_rule rs ->
  legal L (map rule_text rs) = true ->
  exact_layout (lay_rules L) (map rule_text rs) = true ->
  load_kb_from_file api_parse_rule kb (render L (map rule_text rs)) =
  (do kb' <- add_rules kb rs; Ok (kb', true)).
Proof. exact load_closed_exact. Qed.

(* the texts Display prints for closed rules are rule texts in the sense of C21 *)
Theorem C21_closed_wf_text : forall r, closed_rule r -> wf_text (rule_text r) = true.
Proof. exact closed_rule_wf_text. Qed.

(* each of them parses to its rule with the parser the user calls *)
Theorem C21_closed_api_parse_rule : forall r,
  closed_rule r -> api_parse_rule (rule_text r) = Ok (POk r) /\ show_rule r = Ok (rule_text r).
Proof.
  intros r H. split; [now apply api_parse_rule_closed|].
  now destruct (roundtrip_rule_closed r _ _ H (le_n _) (le_n _)) as [Hs _].
Qed.

(* with the executable test, from the empty knowledge base *)
Corollary C21_closed_load_checked : forall rs L,
  forallb closed_ruleb rs = true ->
  legal L (map rule_text rs) = true ->
  exact_layout (lay_rules L) (map rule_text rs) = true ->
  load_kb_from_file api_parse_rule [] (render L (map rule_text rs)) =
  (do kb <- add_rules [] rs; Ok (kb, true)).
Proof.
  intros rs L H. apply C21_closed_load_exact. now apply closed_rulesb_sound.
Qed.

(* non-vacuity: three rules (a list with `| $_`, a goal without arguments, not(..), a cut,
   a negative number, an atom of two words, `l = r`, a disjunction with fail); the second rule on
   three lines with indentation, a `#` comment behind its first line and a `%` comment line
   before its third; a blank line, a comment line first and last *)
Section Witness.
  Let A s := TAtom (s2l s).
  Let V s := TVar 0 (s2l s).
  Let r1 := mkRule (TComplex [A "member"; V "$X"; make_linked_list true [V "$X"; TAnon]]) GNil.
  Let r2 := mkRule (TComplex [A "run"])
     (GOp OAnd [GCall (TComplex [A "init"]);
                GOp ONot [GCall (TComplex [A "member"; A "a"; make_list_of_terms [A "b"; TInt (-3)]])];
                GBip (s2l "!") None;
                GBip (s2l "unify") (Some [V "$Y"; A "New York"])]).
  Let r3 := mkRule (TComplex [A "p"; V "$X"])
     (GOp OOr [GCall (TComplex [A "q"; V "$X"]); GBip (s2l "fail") None]).
  Let rs := [r1; r2; r3].

  Let d0 := mkDeco [] [] [] [].
  Let L := mkLayout
    [ (mkDeco [mkBlank [] (s2l "% a small knowledge base")] [] [] [], []);
      (mkDeco [mkBlank [] []] [] (s2l " ") (s2l "# entry point"),
         [(8%nat, mkDeco [] (s2l "    ") [] []);
          (36%nat, mkDeco [mkBlank (s2l "  ") (s2l "% then commit")] (s2l "    ") [] [])]);
      (d0, []) ]
    [mkBlank [] (s2l "// end")].

  Example C21_closed_witness :
    map rule_text rs =
      [ s2l "member($X, [$X | $_]).";
        s2l "run() :- init(), not(member(a, [b, -3])), !, $Y = New York.";
        s2l "p($X) :- q($X); fail." ] /\
    render L (map rule_text rs) =
      [ s2l "% a small knowledge base";
        s2l "member($X, [$X | $_]).";
        [];
        s2l "run() :- # entry point";
        s2l "     init(), not(member(a, [b, -3])), !,";
        s2l "  % then commit";
        s2l "     $Y = New York.";
        s2l "p($X) :- q($X); fail.";
        s2l "// end" ] /\
    load_kb_from_file api_parse_rule [] (render L (map rule_text rs)) =
      Ok ([ (s2l "member/2", [r1]); (s2l "run/0", [r2]); (s2l "p/1", [r3]) ], true).
  Proof.
    split; [vm_compute; reflexivity|]. split; [vm_compute; reflexivity|].
    rewrite C21_closed_load_checked by (vm_compute; reflexivity). vm_compute. reflexivity.
  Qed.

  (* the same by running the model *)
  Example C21_closed_witness_computed :
    load_kb_from_file api_parse_rule [] (render L (map rule_text rs)) =
      Ok ([ (s2l "member/2", [r1]); (s2l "run/0", [r2]); (s2l "p/1", [r3]) ], true).
  Proof. vm_compute. reflexivity. Qed.
End Witness.

(* `legal` alone is not enough: a break after the sign of a negative number *)
Example break_after_minus_sign_changes_the_rule :
  let r := mkRule (TComplex [TAtom (s2l "p"); TInt (-5)]) GNil in
  let L := mkLayout [ (mkDeco [] [] [] [], [(3%nat, mkDeco [] [] [] [])]) ] [] in
  closed_ruleb r = true /\
  rule_text r = s2l "p(-5)." /\
  legal L [rule_text r] = true /\
  render L [rule_text r] = [s2l "p(-"; s2l "5)."] /\
  expected (lay_rules L) [rule_text r] = [s2l "p(- 5)."] /\
  load_kb_from_file api_parse_rule [] (render L [rule_text r]) =
    Ok ([ (s2l "p/1", [mkRule (TComplex [TAtom (s2l "p"); TAtom (s2l "- 5")]) GNil]) ], true).
Proof. vm_compute. repeat split; reflexivity. Qed.

Check C21_closed_load : forall rs L kb,
  Forall closed_rule rs ->
  legal L (map rule_text rs) = true ->
  expected (lay_rules L) (map rule_text rs) = map rule_text rs ->
  load_kb_from_file api_parse_rule kb (render L (map rule_text rs)) =
  (do kb' <- add_rules kb rs; Ok (kb', true)).

Print Assumptions C21_closed_load.
Print Assumptions C21_closed_load_layout.
Print Assumptions C21_closed_load_exact.
Print Assumptions C21_closed_wf_text.
Print Assumptions C21_closed_load_checked.
Print Assumptions C21_closed_api_parse_rule.

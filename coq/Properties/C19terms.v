(* C19 at term level, the integer case: printing a 64-bit integer (negative ones included) and
   parsing the text, on its own or as an argument, gives the integer back.  This was false
   before the C20 repair (`-5` was an atom for parse_term).
   Atoms, variables, lists and complex terms are proved in Properties/C19termsFull.v, for the
   class `canonical` of Proofs/TermRoundtripMain.v.  Floats are not covered by a theorem. *)
From Suiron Require Import Model.ParseTerm Model.Show Proofs.ParseTermProofs Proofs.ParseRoundtrip
  Proofs.TermRoundtripComplex.

Theorem C19_integer_roundtrip_terms_partial : forall fuel z,
  (- 2 ^ 63 <= z < 2 ^ 63)%Z ->
  parse_term (S fuel) (show_term (TInt z)) = Ok (POk (TInt z)).
Proof. exact parse_term_show_int. Qed.

Theorem C19_integer_argument_terms_partial : forall fuel z,
  (- 2 ^ 63 <= z < 2 ^ 63)%Z ->
  parse_arguments (S fuel) (show_term (TInt z)) = Ok (POk [TInt z]).
Proof. exact parse_arguments_show_int. Qed.

(* the full statement, for a class of terms; Properties/C19termsFull.v proves it for the class
   `canonical` (C19_terms_full_canonical) *)
Definition C19_terms_full (canonical : term -> Prop) : Prop :=
  forall t, canonical t -> exists fuel, parse_term fuel (show_term t) = Ok (POk t).

Example C19_integer_witness :
  parse_term 3 (show_term (TInt (-9223372036854775808))) = Ok (POk (TInt (-9223372036854775808))).
Proof. apply C19_integer_roundtrip_terms_partial. split; [apply Z.leb_le|apply Z.ltb_lt]; reflexivity. Qed.

Check C19_integer_roundtrip_terms_partial : forall fuel z,
  (- 2 ^ 63 <= z < 2 ^ 63)%Z ->
  parse_term (S fuel) (show_term (TInt z)) = Ok (POk (TInt z)).

Print Assumptions C19_integer_roundtrip_terms_partial.
Print Assumptions C19_integer_argument_terms_partial.

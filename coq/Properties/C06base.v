(* C06 - Unification returns a most general unifier extending prior bindings.

   PROVED here (all terms without function calls whose complex terms have an atom as functor,
   all substitutions, all fuel): SOUNDNESS - a successful unification returns a substitution
   set that keeps every earlier binding verbatim and under which both terms denote the same
   term (`teq`, Spec/SpecUnify.v: bindings followed, `$_` matching anything, floats by IEEE
   ==, lists through their nodes with a tail variable standing for the rest of the list) -
   and no binding cycle is created (C08).  Completeness and generality are proved in terms of
   values in Properties/C06.v (C06_general_complete; C06_complete_syntactic for every syntactic
   unifier that has a solution); the syntactic statement `unify_complete_statement` (C06_full
   below), whose `teq` relates NaN to itself, is refuted there (C06_full_false).  Both are also
   evaluated on every run against a reference unifier with occurs check (gen/C06.py,
   lib/refunify.py). *)
From Suiron Require Import Model.Term Model.Subst Model.Unify Spec.SpecCompare Spec.SpecUnify
  Proofs.UnifyInv Proofs.UnifyProps Proofs.UnifySound.

Definition C06_full : Prop := unify_complete_statement unify.

Theorem C06_partial_sound : forall fuel a b ss ss',
  wf2 a = true -> wf2 b = true -> wf2_ss ss ->
  unify fuel a b ss = Ok (Some ss') ->
  teq ss' a b /\ keeps ss ss' /\ wf2_ss ss'.
Proof. exact unify_sound. Qed.

(* ... for function terms too: every earlier binding is kept verbatim *)
Theorem C06_partial_extends : forall fuel a b ss ss',
  wf_term a = true -> wf_term b = true -> wf_ss ss ->
  unify fuel a b ss = Ok (Some ss') -> extends ss ss' /\ wf_ss ss'.
Proof. exact unify_extends. Qed.

(* ... and following bindings still ends everywhere (no occurs-check-free cycle) *)
Theorem C06_partial_no_cycle : forall fuel a b ss ss',
  wf_term a = true -> wf_term b = true -> wf_ss ss ->
  unify fuel a b ss = Ok (Some ss') -> chains_end ss -> chains_end ss'.
Proof. exact unify_chains_end. Qed.

(* the relation is a sensible notion of "same term": reflexive, symmetric, stable under more bindings *)
Theorem C06_teq_refl : forall ss t, fn_free t = true -> teq ss t t.
Proof.
  intros ss.
  intros t Hf. now apply teq_refl_nf, fn_free_nf. 
Qed.
Theorem C06_teq_sym : forall ss a b, teq ss a b -> teq ss b a.
Proof. exact teq_sym. Qed.
Theorem C06_teq_mono : forall ss ss', keeps ss ss' -> forall a b, teq ss a b -> teq ss' a b.
Proof. exact teq_mono. Qed.

(* non-vacuity: [a, $Y | $T] = [$X, b, c] under $X -> a binds $Y to b and $T to [c] *)
Definition C06_demo : bool :=
  let a := TAtom [97%N] in let b := TAtom [98%N] in let c := TAtom [99%N] in
  let X := TVar 1 [36; 88]%N in let Y := TVar 2 [36; 89]%N in let T := TVar 3 [36; 84]%N in
  let l1 := TList a (TList Y (TList T empty_list 1 true) 2 false) 3 false in
  let l2 := TList X (TList b (TList c empty_list 1 false) 2 false) 3 false in
  match unify 20 l1 l2 [None; Some a] with
  | Ok (Some [None; Some (TAtom [97%N]); Some (TAtom [98%N]); Some (TList (TAtom [99%N]) _ _ false)]) => wf2 l1 && wf2 l2
  | _ => false
  end.
Example C06_witness : C06_demo = true.
Proof. vm_compute. reflexivity. Qed.

Check C06_partial_sound : forall fuel a b ss ss',
  wf2 a = true -> wf2 b = true -> wf2_ss ss ->
  unify fuel a b ss = Ok (Some ss') ->
  teq ss' a b /\ keeps ss ss' /\ wf2_ss ss'.

Print Assumptions C06_partial_sound.
Print Assumptions C06_partial_extends.
Print Assumptions C06_partial_no_cycle.
Print Assumptions C06_teq_refl.
Print Assumptions C06_teq_sym.
Print Assumptions C06_teq_mono.

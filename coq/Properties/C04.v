(* C04 - Output side effects occur once per execution, in search order.

   PROVED: the formatting rule of print for all format strings and argument lists, and that
   requests on an exhausted node write nothing.  The order/multiplicity of output relative to
   the reference search is `out w' = output_of evs` in `refines_reference` (Spec/Refine.v;
   not yet proved, evaluated by the check's oracle on every generated history, output
   compared per request). *)
From Coq Require Import String.
From Suiron Require Import Model.Term Model.Subst Model.Builtins Model.Rename Model.Solve Spec.SpecSolve
  Spec.Refine Spec.SpecLazy Spec.SpecCut Proofs.SolveDead Proofs.SolveMisc Proofs.RefinePlain Proofs.RefineDen Proofs.RefineCut.

(* For EVERY program (cut, not, time included) the order and multiplicity of output is PROVED:
   the final world reached by draining a query - its `out` field is everything written - is
   the final world of the reference search (Spec/SpecCut.v), which writes exactly when it
   executes a print goal, once per execution, in depth-first order; and after every single
   answer the world is the one the reference search has reached at that point (C01_step_all). *)
Theorem C04_output_of_search : forall kb bf q w fs R nd w1 m F R',
  canswers kb bf fs q w = Ok R ->
  make_base_node kb (GCall q) w = Ok (nd, w1) ->
  ask_all kb bf m F nd w1 = Ok R' -> out (snd R') = out (snd R).
Proof. intros. now rewrite (refines_cut kb bf q w fs R nd w1 m F R'). Qed.

(* For cut-free programs (calls, conjunctions, disjunctions, built-ins incl. print, print_list,
   nl) the order and multiplicity of output is PROVED: the final world reached by draining a
   query - its `out` field is everything written - is the final world of the reference search
   (Spec/SpecLazy.v), which writes exactly when it executes a print goal, once per execution,
   in depth-first order. *)
Theorem C04_output_of_cutfree_search : forall kb bf, plain_kb kb ->
  forall q w fs R nd w1 m F R',
    answers kb bf fs q w = Ok R ->
    make_base_node kb (GCall q) w = Ok (nd, w1) ->
    drainK kb bf m F nd w1 (fun s w' => Ok ([s], w')) = Ok R' -> out (snd R') = out (snd R).
Proof. intros. now rewrite (refines_lazy kb bf H q w fs R nd w1 m F R'). Qed.

(* print: the first argument, cut at its "%s" markers into pieces p0, p1, .., pn, is written
   with the later arguments substituted for the markers in order; surplus arguments are
   appended (so: concatenation when there is no marker), surplus markers vanish. *)
Theorem C04_print_format : forall p0 pieces args,
  no_pct p0 -> Forall no_pct pieces ->
  format_for_print_pred (with_markers p0 pieces :: args) = Ok (p0 ++ fill args pieces).
Proof.
  intros p0 pieces args.
  intros H0 Hf. unfold format_for_print_pred. rewrite split_with_markers by assumption.
  now rewrite interleave_fill.
Qed.

(* A request that finds no answer on an exhausted node writes nothing. *)
Theorem C04_no_output_after_exhaustion : forall kb bf fuel nd w nd' r c w',
  dead nd -> next kb bf fuel nd w = Ok (nd', r, c, w') -> r = None /\ c = false /\ w' = w /\ dead nd'.
Proof. exact dead_stays. Qed.

Example C04_witness :
  format_for_print_pred [s2l "Hello, %s. "%string; s2l "Dave"%string; s2l "You're looking well today."%string]
  = Ok (s2l "Hello, Dave. You're looking well today."%string) /\
  format_for_print_pred [s2l "a"%string; s2l "b"%string; s2l "c"%string] = Ok (s2l "abc"%string) /\
  format_for_print_pred [s2l "x=%s, y=%s"%string; s2l "1"%string] = Ok (s2l "x=1, y="%string).
Proof. vm_compute. repeat split. Qed.

Check C04_print_format : forall p0 pieces args,
  no_pct p0 -> Forall no_pct pieces ->
  format_for_print_pred (with_markers p0 pieces :: args) = Ok (p0 ++ fill args pieces).

Print Assumptions C04_output_of_search.
Print Assumptions C04_output_of_cutfree_search.
Print Assumptions C04_print_format.
Print Assumptions C04_no_output_after_exhaustion.

(* C11 - Answers do not depend on how program variables are named.

   The full statement (C11_full below): if every clause of kb' is a clause of kb with its variables
   renamed by a (per clause) injective map of names - different clauses may be mapped onto
   the same names, including the query's - then every history of requests on a query yields
   the same answers in the same order up to the names of unbound variables, and the same
   output.  This file: the half of the argument that concerns the program text - every clause
   fetch from kb' returns the renamed fetched clause of kb with THE SAME fresh variable ids
   and the same counter (ids are assigned by first occurrence, which an injective renaming
   preserves), for all knowledge bases, predicates, indices and counters.  From there on the
   engine identifies variables by id (C10: ids of different fetches never clash), names being
   used only by Display; that second half (a lock-step simulation of the whole solver) is in
   Properties/C11.v, under a syntactic hypothesis on the program and without the claim about the
   output, for which the full statement is false (C11_full_false there).  The implementation is
   tested on every run by solving each generated program as written and under four renamings and
   comparing all observations. *)
From Suiron Require Import Model.Term Model.Subst Model.Rename Model.Solve Proofs.RenameNames Proofs.SolveFrame.

(* names erased from a term / an answer *)
Definition no_names (t : term) : term := mapn (fun _ => []) t.
Definition no_names_obs (o : qobs) : qobs :=
  match o with
  | OAns (Some s) => OAns (Some (map (option_map no_names) s))
  | _ => o
  end.

Definition C11_full : Prop :=
  forall kb kb' fuel terms n w os o,
    kb_renamed kb kb' ->
    run_query kb fuel terms (repeat QAsk n) w = Ok (os, o) ->
    exists os', (run_query kb' fuel terms (repeat QAsk n) w = Ok (os', o)) /\
                (map no_names_obs os' = map no_names_obs os).

Theorem C11_partial_clause_fetch : forall kb kb' pred i ctr,
  kb_renamed kb kb' ->
  match get_rule kb pred i ctr, get_rule kb' pred i ctr with
  | Ok (r, c), Ok (r', c') => c = c' /\ rule_renamed r r'
  | Panic, Panic => True
  | OutOfFuel, OutOfFuel => True
  | _, _ => False
  end.
Proof. exact get_rule_renamed. Qed.

(* the same for the building blocks, for any renaming state *)
Theorem C11_partial_rule : forall phi, (forall a b, phi a = phi b -> a = b) -> forall r st,
  rename_rule (mapn_rule phi r) (mapn_st phi st) = rres phi (rename_rule r st).
Proof. exact rename_rule_commutes. Qed.

(* non-vacuity: p($X, $Y) :- q($Y, $X).  with $X, $Y swapped: same ids 8, 9 in the same places *)
Definition C11_demo : bool :=
  let X := [36; 88]%N in let Y := [36; 89]%N in
  let mk a b := mkRule (TComplex [TAtom [112%N]; TVar 0 a; TVar 0 b]) (GCall (TComplex [TAtom [113%N]; TVar 0 b; TVar 0 a])) in
  match get_rule [([112; 47; 50]%N, [mk X Y])] [112; 47; 50]%N 0 7, get_rule [([112; 47; 50]%N, [mk Y X])] [112; 47; 50]%N 0 7 with
  | Ok (mkRule (TComplex [_; TVar 8 _; TVar 9 _]) _, 9%N), Ok (mkRule (TComplex [_; TVar 8 _; TVar 9 _]) _, 9%N) => true
  | _, _ => false
  end.
Example C11_witness : C11_demo = true.
Proof. vm_compute. reflexivity. Qed.

Check C11_partial_clause_fetch : forall kb kb' pred i ctr,
  kb_renamed kb kb' ->
  match get_rule kb pred i ctr, get_rule kb' pred i ctr with
  | Ok (r, c), Ok (r', c') => c = c' /\ rule_renamed r r'
  | Panic, Panic => True
  | OutOfFuel, OutOfFuel => True
  | _, _ => False
  end.

Print Assumptions C11_partial_clause_fetch.
Print Assumptions C11_partial_rule.

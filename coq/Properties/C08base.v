(* C08 - Variable bindings never form a cycle. *)
From Suiron Require Import Model.Term Model.Subst Model.Unify Spec.SpecCompare
  Proofs.UnifyInv Proofs.UnifyProps.

(* `chains_end ss`: following bindings from ANY term ends, at an unbound variable or at a
   non-variable term (Spec.SpecCompare.chain is the "follow the bindings" relation). *)

(* One successful unification keeps that true ... *)
Theorem C08_unify_keeps_chains_ending : forall fuel a b ss ss',
  wf_term a = true -> wf_term b = true -> wf_ss ss ->
  unify fuel a b ss = Ok (Some ss') -> chains_end ss -> chains_end ss'.
Proof. exact unify_chains_end. Qed.

(* ... so it is true after every sequence of successful unifications from the empty set,
   of any length, over any terms. *)
Theorem C08_no_cycle_after_any_sequence : forall fuel pairs ss',
  wf_pairs pairs -> unify_seq fuel pairs [] = Ok (Some ss') -> chains_end ss'.
Proof.
  intros fuel pairs ss' Hw H.
  destruct (unify_seq_invariants fuel pairs [] ss' Hw (ss_all_nil _) H) as (_ & _ & Hc & _).
  apply Hc, chains_end_nil.
Qed.

(* Unifying two variables that are already aliased (both chains end at the same unbound
   variable), in either order, succeeds and adds no binding. *)
Theorem C08_aliased_noop : forall ss a b v,
  ends_at ss v a -> ends_at ss v b ->
  exists f0, forall f, (f0 <= f)%nat -> unify f a b ss = Ok (Some ss).
Proof. exact unify_aliased_noop. Qed.

(* non-vacuity: after $X = $Y the two are aliased, and $Y = $X returns the same set *)
Example C08_witness :
  let ss := [None; Some (TVar 2 [89%N]); None] in
  ends_at ss 2 (TVar 1 [88%N]) /\ ends_at ss 2 (TVar 2 [89%N]) /\
  unify 5 (TVar 2 [89%N]) (TVar 1 [88%N]) ss = Ok (Some ss) /\
  unify 5 (TVar 1 [88%N]) (TVar 2 [89%N]) ss = Ok (Some ss).
Proof.
  simpl. repeat split.
  - eapply ends_step; [discriminate|reflexivity|]. apply ends_here; [discriminate|reflexivity].
  - apply ends_here; [discriminate|reflexivity].
Qed.

Check C08_no_cycle_after_any_sequence : forall fuel pairs ss',
  wf_pairs pairs -> unify_seq fuel pairs [] = Ok (Some ss') -> chains_end ss'.

Print Assumptions C08_unify_keeps_chains_ending.
Print Assumptions C08_no_cycle_after_any_sequence.
Print Assumptions C08_aliased_noop.

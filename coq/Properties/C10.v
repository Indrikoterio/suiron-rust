(* C10 - Renaming apart, DURING A SEARCH: every clause fetched while a query is being solved is
   renamed to variable ids above every id in use.

   `below n t` / `below_goal n g`: every variable id occurring in the term / goal is <= n.
   `below_ss n ss`: every term bound in the substitution set is `below n`, and the set has at most
   n + 1 slots (every slot index is <= n).  `below_args` is `below` for the argument list of a
   built-in predicate.  (Definitions in Proofs/FreshSearch.v; `rvars`, `tvars` in
   Proofs/RenameProofs.v.)  The invariant of a search is: goal and substitution set are below the
   variable-id counter of the world (`next_id w`). *)
From Suiron Require Import Model.Term Model.Subst Model.Unify Model.Builtins Model.Rename Model.Solve
  Spec.SpecCut Proofs.RenameProofs Proofs.RefineCut Proofs.SolveQuiet Proofs.FreshSearch.
Open Scope N_scope.

(* THE PROPERTY, locally: the clause that the search fetches at counter `next_id w` has all its
   variable ids strictly above the counter and at most the new counter; so, the goal term t and the
   substitution set s being below the counter, no id of the clause occurs in t, is a slot of s, is
   bound in s, or occurs in a term bound in s.  The clause itself is below the new counter. *)
Theorem C10_clause_fetched_is_apart : forall kb key idx w r ctr t s,
  get_rule kb key idx (next_id w) = Ok (r, ctr) ->
  below (next_id w) t -> below_ss (next_id w) s ->
  next_id w <= ctr /\
  (forall id name, In (id, name) (rvars r) ->
     next_id w < id <= ctr /\
     ~ In id (map fst (tvars t)) /\
     N.of_nat (length s) <= id /\ ss_get s id = None /\
     (forall i u, ss_get s i = Some u -> ~ In id (map fst (tvars u)))) /\
  below ctr (r_head r) /\ below_goal ctr (r_body r).
Proof. exact clause_fetched_is_apart. Qed.

(* unification keeps the invariant: it binds only variables that occur in its operands or in the
   set, to terms that occur there (or to the constant value of a built-in function) *)
Theorem C10_unify_below : forall n fuel a b ss ss',
  below n a -> below n b -> below_ss n ss -> unify fuel a b ss = Ok (Some ss') -> below_ss n ss'.
Proof. exact unify_below. Qed.

(* so does every built-in predicate (all sixteen of `run_bip`) *)
Theorem C10_run_bip_below : forall n fuel fn ts s r s',
  below_args n ts -> below_ss n s -> run_bip fuel fn ts s = Ok r -> br_sol r = Some s' -> below_ss n s'.
Proof. exact run_bip_below. Qed.

(* the reference search (Spec/SpecCut.v), any goal, any knowledge base, any continuation that keeps
   the invariant: the counter never goes below its initial value (a head that does not unify restores
   it to the value before the fetch, as the engine does) and every answer is below the final counter *)
Theorem C10_csolve_fresh : forall kb bf fuel g s w k answers w' sg,
  below_goal (next_id w) g -> below_ss (next_id w) s ->
  (forall s1 w1 c a wE sg1, below_ss (next_id w1) s1 -> next_id w <= next_id w1 ->
     k s1 w1 c = Ok (a, wE, sg1) -> next_id w1 <= next_id wE /\ Forall (below_ss (next_id wE)) a) ->
  csolve kb bf fuel g s w k = Ok (answers, w', sg) ->
  next_id w <= next_id w' /\ Forall (below_ss (next_id w')) answers.
Proof.
  intros kb bf fuel g s w k answers w' sg Hg Hs Hk H.
  refine (proj1 (fresh_all kb bf fuel) g s w k (answers, w', sg) Hg Hs _ H).
  intros s1 w1 c [[a wE] sg1] Hs1 Hn1 H1. exact (Hk _ _ _ _ _ _ Hs1 Hn1 H1).
Qed.

Theorem C10_canswers_fresh : forall kb bf fuel q w answers w',
  below (next_id w) q -> canswers kb bf fuel q w = Ok (answers, w') ->
  Forall (below_ss (next_id w')) answers /\ next_id w <= next_id w'.
Proof. exact canswers_fresh. Qed.

(* a query built by the API satisfies the hypothesis *)
Theorem C10_api_query_below : forall ts w g w',
  api_make_query ts w = Ok (g, w') -> exists q, g = GCall q /\ below (next_id w') q.
Proof.
  intros ts w g w'. unfold api_make_query. destruct (make_query ts) as [[g0 ctr]| |] eqn:E; cbn [bind]; intro H; try discriminate.
  inversion H; subst. cbn [next_id]. eapply make_query_below; eauto.
Qed.

(* THE ENGINE MODEL, through the refinement theorem C01_refines (refines_cut): whenever the reference
   search and the engine's request loop (asking the query's node until it reports no answer) both
   finish, every substitution set the engine returns is below the engine's final counter *)
Theorem C10_engine_answers_fresh : forall kb bf q w fs R nd w1 m F answers wE,
  below (next_id w) q ->
  canswers kb bf fs q w = Ok R ->
  make_base_node kb (GCall q) w = Ok (nd, w1) ->
  ask_all kb bf m F nd w1 = Ok (answers, wE) ->
  Forall (below_ss (next_id wE)) answers /\ next_id w <= next_id wE.
Proof.
  intros kb bf q w fs R nd w1 m F answers wE Hq Ha Hm Hd. pose proof (refines_cut _ _ _ _ _ _ _ _ _ _ _ Ha Hm Hd) as <-.
  exact (canswers_fresh _ _ _ _ _ _ _ Hq Ha).
Qed.

(* the same for requests made one after the other with whatever fuel, also beyond exhaustion
   (C01_requests_are_the_reference_answers): every answer returned is a reference answer, below the
   reference's final counter, which is the engine's from exhaustion on *)
Theorem C10_engine_requests_fresh : forall kb bf q w fs a wR nd w1 rs nd' w',
  below (next_id w) q ->
  canswers kb bf fs q w = Ok (a, wR) ->
  make_base_node kb (GCall q) w = Ok (nd, w1) ->
  Asks kb bf nd w1 rs nd' w' ->
  (forall s, In (Some s) rs -> In s a /\ below_ss (next_id wR) s) /\
  next_id w <= next_id wR /\
  ((length a < length rs)%nat -> w' = wR).
Proof.
  intros kb bf q w fs a wR nd w1 rs nd' w' Hq Ha Hm HA.
  destruct (canswers_fresh _ _ _ _ _ _ _ Hq Ha) as [Hall Hle].
  destruct (base_node_cden _ _ _ _ _ _ _ _ _ Ha Hm) as (Hn & fs' & g & Hfs & HD).
  destruct (asks_are_reference_answers _ _ _ _ _ _ _ HA fs' a wR g Hn Hfs HD) as [Hr Hw].
  split; [|split; [exact Hle|exact Hw]].
  intros s Hin. rewrite Hr in Hin. apply in_app_or in Hin as [Hin|Hin].
  - apply in_map_iff in Hin as (s0 & E & Hin). inversion E; subst s0.
    assert (In s a) as Hin' by (rewrite <- (firstn_skipn (length rs) a); apply in_or_app; now left).
    split; [exact Hin'|]. rewrite Forall_forall in Hall. now apply Hall.
  - apply repeat_spec in Hin. discriminate.
Qed.

(* non-vacuity.   p(a).  p($X) :- q($X).  q([$X]).  q(c).   ?- p($Y).   with $Y = $_1, counter 1.
   Three answers; the second binds $_1 to [$_3], $_3 being the variable of the clause q([$X])
   fetched at counter 2; the final counter is 3.  The engine's request loop returns the same. *)
Example C10_fresh_witness :
  let X := TVar 0 [36; 88] in
  let kb : kbase :=
    [([112; 47; 49], [mkRule (TComplex [TAtom [112]; TAtom [97]]) GNil;
                      mkRule (TComplex [TAtom [112]; X]) (GCall (TComplex [TAtom [113]; X]))]);
     ([113; 47; 49], [mkRule (TComplex [TAtom [113]; TList X empty_list 1 false]) GNil;
                      mkRule (TComplex [TAtom [113]; TAtom [99]]) GNil])] in
  let q := TComplex [TAtom [112]; TVar 1 [36; 89]] in
  let w := mkWorld 1 false None [] in
  below (next_id w) q /\
  exists a1 a2 a3 w' nd w1,
    canswers kb 20 20 q w = Ok ([a1; a2; a3], w') /\ next_id w' = 3 /\
    ss_get a2 1 = Some (TList (TVar 3 [36; 88]) empty_list 1 false) /\
    make_base_node kb (GCall q) w = Ok (nd, w1) /\
    ask_all kb 20 10 20 nd w1 = Ok ([a1; a2; a3], w').
Proof.
  cbn zeta. split.
  - intros id name [E|[]]. inversion E; subst. cbn. discriminate.
  - do 6 eexists. refine (conj _ (conj _ (conj _ (conj _ _)))).
    + vm_compute. reflexivity.
    + reflexivity.
    + reflexivity.
    + vm_compute. reflexivity.
    + vm_compute. reflexivity.
Qed.

Print Assumptions C10_clause_fetched_is_apart.
Print Assumptions C10_unify_below.
Print Assumptions C10_run_bip_below.
Print Assumptions C10_csolve_fresh.
Print Assumptions C10_canswers_fresh.
Print Assumptions C10_api_query_below.
Print Assumptions C10_engine_answers_fresh.
Print Assumptions C10_engine_requests_fresh.

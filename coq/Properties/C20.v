(* C20 - A term's meaning does not depend on where it is written.
   The same text s is parsed to the same term (or fails the same way) by parse_term, as the
   argument of parse_arguments, as the element of a list, as the argument of a complex term
   and of a query, and as an operand of an infix operator of parse_subgoal - for EVERY
   string s that satisfies the decidable side conditions below.  Fuel: parse_arguments,
   parse_linked_list, parse_complex and parse_query with fuel S f agree with parse_term with the
   same fuel S f; parse_subgoal spends one unit before it calls parse_term, so C20_infix relates
   parse_subgoal (S f) to parse_term f, and C20_context_independent, which fixes parse_term (S f),
   has parse_subgoal (S (S f)).

   Side conditions (all boolean functions of the text, defined in Proofs/ParseTermProofs.v):
   * args_plain s      - scanning the trimmed text the way parse_arguments does, no comma and
                         no backslash occurs outside "..." and outside ( ) [ ]; brackets
                         are closed at the end; double quotes outside brackets: none, or exactly
                         two which are the first and last character; the text does not end
                         with a comma.
   * list_plain s      - scanning the text backwards the way parse_linked_list does, no
                         unescaped `,` or `|` occurs outside "..." and ( ) [ ]; quotes as above.
   * parens_balanced s - as many `(` as `)` (indices_of_parentheses pairs the first `(` of
                         f(s) with the last `)`).
   * no_arith_infix s  - parse_term's scan finds no ` + `, ` - `, ` * `, ` / ` in the text.
                         Without this condition the statement is FALSE of the crate (known
                         finding arith-infix-as-argument, see C20_args_refuted_for_infix_texts):
                         `$X + 1` is add($X, 1) for parse_term, in a list and as an infix
                         operand, but the atom `$X + 1` as an argument of f(...).
   * for the infix context: the scan of check_infix finds the operator where it is written.
   What the statement does not cover is listed at C20_full below. *)
From Coq Require Import String.
From Suiron Require Import Model.ParseTerm Model.ParseGoal Proofs.ParseTermProofs.
Open Scope N_scope.

(* argument of parse_arguments *)
Theorem C20_args : forall fuel s,
  args_plain s = true -> no_arith_infix s = true ->
  parse_arguments (S fuel) s = pmap (fun t => [t]) (parse_term (S fuel) s).
Proof. exact context_independent_args. Qed.

(* the k-th of several arguments: every piece of `p1,p2,...,pn` is parsed as parse_term
   parses it, in order (piece_ok: args_plain for a text that may carry blanks around it, the
   text not empty, not ending with a comma, no arithmetic infix) *)
Theorem C20_args_nary : forall fuel ps,
  ps <> [] -> forallb piece_ok ps = true -> trim (join_comma ps) = join_comma ps ->
  parse_arguments (S fuel) (join_comma ps) = pseq (map (parse_term (S fuel)) ps).
Proof. exact context_independent_args_nary. Qed.

(* the punctuation atoms written as two-character escapes: `\,` `\|` `\(` ... *)
Theorem C20_args_escape : forall fuel c,
  is_white c = false ->
  parse_arguments (S fuel) [c_bslash; c] = pmap (fun t => [t]) (parse_term (S fuel) [c_bslash; c]).
Proof.
  intros fuel c Hc. cbn [parse_arguments parse_term].
  assert (Ht : trim [c_bslash; c] = [c_bslash; c]).
  { apply trimmed_trim. right. split; [reflexivity|exact Hc]. }
  unfold parse_arguments_body, parse_term_body. rewrite Ht.
  (* the loop drops the backslash and keeps c; the scan for an infix sees neither a blank nor an
     operator: both sides come down to make_term on the one character *)
  cbn -[make_term trim]. rewrite make_term_trim. unfold pmap.
  (* the tests on c that remain choose between equal branches *)
  assert (Hsame : forall (A : Type) (b : bool) (x : A), (if b then x else x) = x) by (now destruct b).
  rewrite !Hsame. cbn [bind infix_fn_name].
  destruct (make_term _ _ [c]) as [[x|]| |]; reflexivity.
Qed.

(* element of a list: [s] *)
Theorem C20_list : forall fuel s,
  s <> [] -> list_plain s = true ->
  parse_linked_list (S fuel) (c_lbr :: s ++ [c_rbr]) =
  pmap (fun t => TList t empty_list 1 false) (parse_term (S fuel) s).
Proof. exact context_independent_list. Qed.

(* argument of a complex term: f(s) *)
Theorem C20_complex : forall fuel f s,
  functor_ok f = true -> parens_balanced s = true ->
  (length (f ++ c_lpar :: s ++ [c_rpar]) <= 1000)%nat ->
  trim s <> [] -> args_plain s = true -> no_arith_infix s = true ->
  parse_complex (S fuel) (f ++ c_lpar :: s ++ [c_rpar]) =
  pmap (fun t => TComplex [TAtom (trim f); t]) (parse_term (S fuel) s).
Proof. exact context_independent_complex. Qed.

(* argument of a query: f(s) and f(s). - parse_term, then make_query's renaming *)
Theorem C20_query : forall fuel f s,
  functor_ok f = true -> parens_balanced s = true ->
  (length (f ++ c_lpar :: s ++ [c_rpar]) <= 1000)%nat ->
  trim s <> [] -> args_plain s = true -> no_arith_infix s = true ->
  parse_query (S fuel) (f ++ c_lpar :: s ++ [c_rpar]) =
  (dop t <- parse_term (S fuel) s; do r <- make_query [TAtom (trim f); t]; pok (fst r)).
Proof. exact context_independent_query. Qed.

Theorem C20_query_period : forall fuel f s,
  functor_ok f = true -> parens_balanced s = true ->
  (length (f ++ c_lpar :: s ++ [c_rpar]) <= 1000)%nat ->
  trim s <> [] -> args_plain s = true -> no_arith_infix s = true ->
  parse_query (S fuel) ((f ++ c_lpar :: s ++ [c_rpar]) ++ [c_period]) =
  (dop t <- parse_term (S fuel) s; do r <- make_query [TAtom (trim f); t]; pok (fst r)).
Proof.
  intros fuel f s Hf Hb Hlen Hne Ha Hn.
  rewrite <- (C20_query fuel f s) by assumption.
  rewrite parse_query_unfold by (intros E; apply app_eq_nil in E as [_ E]; discriminate).
  rewrite last_last. change (c_period =? c_period) with true. cbv iota.
  rewrite removelast_last.
  rewrite parse_query_unfold by apply call_text_nonempty.
  rewrite last_call_text. change (c_rpar =? c_period) with false. reflexivity.
Qed.

(* operands of an infix operator of parse_subgoal: l = r, l == r, l < r, l <= r, l > r, l >= r *)
Theorem C20_infix : forall fuel inf name l r,
  infix_goal_name inf = Some name ->
  is_white (hd 32 l) = false -> is_white (last r 32) = false ->
  check_infix (infix_text l (op_text inf) r) = Ok (inf, (length l + 1)%nat) ->
  parse_subgoal (S fuel) (infix_text l (op_text inf) r) =
  (dop t1 <- parse_term fuel l; dop t2 <- parse_term fuel r; pok (make_goal name [t1; t2])).
Proof. exact context_independent_infix. Qed.

(* all contexts at once, for one text (C20_side, in Proofs/ParseTermProofs.v: args_plain,
   no_arith_infix, list_plain, parens_balanced, and the trimmed text is not empty) *)
Theorem C20_context_independent : forall fuel s,
  C20_side s = true ->
  let t := parse_term (S fuel) s in
  parse_arguments (S fuel) s = pmap (fun x => [x]) t /\
  parse_linked_list (S fuel) (c_lbr :: s ++ [c_rbr]) = pmap (fun x => TList x empty_list 1 false) t /\
  (forall f, functor_ok f = true -> (length (f ++ c_lpar :: s ++ [c_rpar]) <= 1000)%nat ->
     parse_complex (S fuel) (f ++ c_lpar :: s ++ [c_rpar]) =
       pmap (fun x => TComplex [TAtom (trim f); x]) t /\
     parse_query (S fuel) (f ++ c_lpar :: s ++ [c_rpar]) =
       (dop x <- t; do r <- make_query [TAtom (trim f); x]; pok (fst r))) /\
  (forall inf name l, infix_goal_name inf = Some name ->
     is_white (hd 32 l) = false -> is_white (last s 32) = false ->
     check_infix (infix_text l (op_text inf) s) = Ok (inf, (length l + 1)%nat) ->
     parse_subgoal (S (S fuel)) (infix_text l (op_text inf) s) =
       (dop t1 <- parse_term (S fuel) l; dop t2 <- t; pok (make_goal name [t1; t2]))).
Proof.
  intros fuel s H t. unfold C20_side in H.
  apply andb_true_iff in H as [H Hne]. apply andb_true_iff in H as [H Hb].
  apply andb_true_iff in H as [H Hl]. apply andb_true_iff in H as [Ha Hn].
  assert (Hne' : trim s <> []) by (intros E; rewrite E in Hne; discriminate).
  assert (Hs : s <> []) by (intros ->; now elim Hne').
  repeat split.
  - now apply C20_args.
  - now apply C20_list.
  - now apply C20_complex.
  - now apply C20_query.
  - intros inf name l Hname Hhl Hls Hci. now apply C20_infix.
Qed.

(* non-vacuity: a text with a signed number, a nested list with a tail variable and a quoted
   atom containing a comma satisfies the side conditions; its term in four contexts *)
Example C20_witness :
  let s := s2l "foo(-5, [a, ""b, c"" | $T], $_)" in
  let t := TComplex [TAtom (s2l "foo"); TInt (-5);
             TList (TAtom (s2l "a")) (TList (TAtom (s2l "b, c")) (TList (TVar 0 (s2l "$T")) empty_list 1 true) 2 false) 3 false;
             TAnon] in
  C20_side s = true /\
  parse_term 9 s = Ok (POk t) /\
  parse_arguments 9 s = Ok (POk [t]) /\
  parse_linked_list 9 (c_lbr :: s ++ [c_rbr]) = Ok (POk (TList t empty_list 1 false)) /\
  parse_complex 9 (s2l "g(" ++ s ++ s2l ")") = Ok (POk (TComplex [TAtom (s2l "g"); t])) /\
  parse_subgoal 9 (s2l "$X = " ++ s) = Ok (POk (GBip (s2l "unify") (Some [TVar 0 (s2l "$X"); t]))).
Proof. vm_compute. repeat split. Qed.

(* the defect that was repaired: -5 is the integer in every context *)
Example C20_witness_signed :
  let s := s2l "-5" in
  C20_side s = true /\ parse_term 5 s = Ok (POk (TInt (-5))) /\
  parse_arguments 5 s = Ok (POk [TInt (-5)]) /\
  parse_linked_list 5 (s2l "[-5]") = Ok (POk (TList (TInt (-5)) empty_list 1 false)) /\
  parse_subgoal 5 (s2l "$X = -5") = Ok (POk (GBip (s2l "unify") (Some [TVar 0 (s2l "$X"); TInt (-5)]))).
Proof. vm_compute. repeat split. Qed.

Example C20_witness_nary :
  let ps := [s2l "-5"; s2l " [a, b | $T]"; s2l " foo(1, ""x, y"")"] in
  forallb piece_ok ps = true /\ trim (join_comma ps) = join_comma ps /\
  join_comma ps = s2l "-5, [a, b | $T], foo(1, ""x, y"")" /\
  parse_arguments 9 (join_comma ps) =
  Ok (POk [TInt (-5);
           TList (TAtom (s2l "a")) (TList (TAtom (s2l "b")) (TList (TVar 0 (s2l "$T")) empty_list 1 true) 2 false) 3 false;
           TComplex [TAtom (s2l "foo"); TInt 1; TAtom (s2l "x, y")]]).
Proof. vm_compute. repeat split. Qed.

(* Known finding (class arith-infix-as-argument): without no_arith_infix the argument
   context disagrees - so the full statement below is false of the repaired crate too. *)
Definition C20_known_class (s : str) : Prop := no_arith_infix s = false.

Example C20_args_refuted_for_infix_texts :
  exists s, C20_known_class s /\ args_plain s = true /\
            parse_arguments 5 s <> pmap (fun t => [t]) (parse_term 5 s).
Proof. exists (s2l "$X + 1"). repeat split; vm_compute; discriminate. Qed.

(* What C20 asks for in full: agreement of all contexts for every term text, including
   arithmetic-infix texts as arguments (false: known finding above), the k-th of several
   list elements (several ARGUMENTS are covered by C20_args_nary; for lists only a single
   element is proved, the correspondence runs check positions 1..2), and texts with escapes longer than `\x` or
   with inner double quotes, which the crate treats differently by context (parse_arguments
   removes backslashes and checks quotes, parse_term does neither).  The definition states the
   first of these only: the argument context without the condition no_arith_infix. *)
Definition C20_full : Prop :=
  forall fuel s, args_plain s = true ->
    parse_arguments (S fuel) s = pmap (fun t => [t]) (parse_term (S fuel) s).

Example C20_full_is_false : ~ C20_full.
Proof.
  intros H. specialize (H 4%nat (s2l "$X + 1") eq_refl). vm_compute in H. discriminate.
Qed.

Check C20_args : forall fuel s,
  args_plain s = true -> no_arith_infix s = true ->
  parse_arguments (S fuel) s = pmap (fun t => [t]) (parse_term (S fuel) s).
Check C20_list : forall fuel s,
  s <> [] -> list_plain s = true ->
  parse_linked_list (S fuel) (c_lbr :: s ++ [c_rbr]) =
  pmap (fun t => TList t empty_list 1 false) (parse_term (S fuel) s).

Print Assumptions C20_args.
Print Assumptions C20_args_nary.
Print Assumptions C20_args_escape.
Print Assumptions C20_list.
Print Assumptions C20_complex.
Print Assumptions C20_query.
Print Assumptions C20_query_period.
Print Assumptions C20_infix.
Print Assumptions C20_context_independent.

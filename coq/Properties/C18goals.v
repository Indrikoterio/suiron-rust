(* C18 (goal and rule level) - `tokenize`, `generate_goal` and `parse_rule` return a value or
   an error for every input string: never a panic, and never "still running" once the fuel
   exceeds 2 * length + 3.

   The leaf parsers `parse_subgoal` / `parse_complex` are parameters `ps` / `pc` (they are
   modelled in Model/ParseGoal.v, Model/ParseTerm.v); the hypothesis on them is the
   term-level part of C18, asked only for texts that are not longer than the input: they
   return a value or an error.

   These theorems are about the crate AFTER the repairs
     fix: parse_rule returns an error instead of panicking when the head is not a complex term
     fix: group_tokens skips the tokens a nested group covers, not its number of children
   The remaining `panic!`s of tokenizer.rs / token.rs that can be reached syntactically from
   generate_goal (make_branch_token, number_of_children, get_token_str, get_children,
   "Group should have 1 child", "Leaf token must be Subgoal") are modelled as `Panic` and are
   PROVED unreachable (Proofs/TokenizerProofs.v: stokenize_TOKS, gts_raw, and_pass, or_pass,
   tttg_total). *)
From Coq Require Import String.
From Suiron Require Import Model.Tokenizer Model.ParseRule Proofs.TokenizerProofs.
Open Scope N_scope.

Theorem C18_tokenize_returns : forall s fuel,
  (length s < fuel)%nat ->
  (exists toks, tokenize fuel s = Ok (POk toks)) \/ tokenize fuel s = Ok PErr.
Proof.
  intros s fuel.
  intros H. apply returns_finishes. now apply tokenize_total.
Qed.

(* The leaf parser is only asked about texts that are not longer than the input (each is the
   trimmed form of a slice of the input), so a fuel-bounded leaf parser can be plugged in. *)
Theorem C18_generate_goal_returns : forall (ps : str -> res (presult goal)) s fuel,
  (forall t, (length t <= length s)%nat -> (exists g, ps t = Ok (POk g)) \/ ps t = Ok PErr) ->
  (2 * length s + 3 <= fuel)%nat ->
  (exists g, generate_goal ps fuel s = Ok (POk g)) \/ generate_goal ps fuel s = Ok PErr.
Proof. exact generate_goal_returns_le. Qed.

Theorem C18_parse_rule_returns :
  forall (ps : str -> res (presult goal)) (pc : str -> res (presult term)) s fuel,
  (forall t, (length t <= length s)%nat -> (exists g, ps t = Ok (POk g)) \/ ps t = Ok PErr) ->
  (forall t, (length t <= length s)%nat -> (exists h, pc t = Ok (POk h)) \/ pc t = Ok PErr) ->
  (2 * length s + 3 <= fuel)%nat ->
  (exists r, parse_rule ps pc fuel s = Ok (POk r)) \/ parse_rule ps pc fuel s = Ok PErr.
Proof. exact parse_rule_returns_le. Qed.

(* non-vacuity, with a toy leaf parser that trims, accepts every text but the empty one and recognises `!` *)
Definition toy_ps (s : str) : res (presult goal) :=
  match tk_trim s with
  | [] => Ok PErr
  | [33] => Ok (POk (GBip [33] None))
  | t => Ok (POk (GCall (TComplex [TAtom t])))
  end.
Definition toy_pc (s : str) : res (presult term) :=
  match tk_trim s with [] => Ok PErr | t => Ok (POk (TComplex [TAtom t])) end.

Open Scope string_scope.
Example C18_witness :
  let call s := GCall (TComplex [TAtom (s2l s)]) in
  (* nested groups, 19 characters, fuel 41 *)
  generate_goal toy_ps 41 (s2l "a, ((b; c), d); e,f") =
    Ok (POk (GOp OOr [GOp OAnd [call "a"; GOp OAnd [GOp OOr [call "b"; call "c"]; call "d"]];
                      GOp OAnd [call "e"; call "f"]])) /\
  (* errors, not panics *)
  generate_goal toy_ps 20 (s2l "a, b)") = Ok PErr /\
  generate_goal toy_ps 20 (s2l "(a, b") = Ok PErr /\
  generate_goal toy_ps 20 (s2l "a,, b") = Ok PErr /\
  (* the head of a rule that is not a complex term: an error (a panic before the first fix above) *)
  parse_rule toy_ps toy_pc 20 (s2l "! :- a.") = Ok PErr /\
  parse_rule toy_ps toy_pc 20 (s2l "h :- a, b.") =
    Ok (POk (mkRule (TComplex [TAtom (s2l "h")]) (GOp OAnd [call "a"; call "b"]))).
Proof. vm_compute. repeat split. Qed.

Check C18_generate_goal_returns : forall (ps : str -> res (presult goal)) s fuel,
  (forall t, (length t <= length s)%nat -> (exists g, ps t = Ok (POk g)) \/ ps t = Ok PErr) ->
  (2 * length s + 3 <= fuel)%nat ->
  (exists g, generate_goal ps fuel s = Ok (POk g)) \/ generate_goal ps fuel s = Ok PErr.

Print Assumptions C18_tokenize_returns.
Print Assumptions C18_generate_goal_returns.
Print Assumptions C18_parse_rule_returns.

(* C01 - Answers equal depth-first SLD resolution, in order.

   The reference is Spec/SpecCut.v: depth-first, left-to-right, clause-order resolution in
   success-continuation style (`canswers`), threading the world - variable-id counter, stop
   flag, output - in search order; cut, not and time as documented.  (Spec/SpecLazy.v is the
   same search for the fragment without cut / not / time, without the signal machinery.)

   PROVED (C01_refines), for EVERY knowledge base, every query, every world and all fuels: if
   the reference search of the query finishes with R (the list of answer substitutions in
   order, and the final world) and asking the query's node again and again until it reports no
   answer finishes with R', then R' = R - the same answers, in the same order and
   multiplicity, SYNTACTICALLY equal substitution sets (a fortiori equal up to renaming of
   unbound variables), the same final variable-id counter and the same output.  The proof is a
   refinement: `cden` (Proofs/RefineCut.v) maps every node state to the rest of the reference
   search it stands for, `cden_fresh` says a new node denotes the reference search of its goal,
   `cden_step` that one machine step either finds no answer - the denotation is empty - or
   finds the next answer and leaves a node denoting the rest.  "Bindings of an abandoned
   alternative never appear later" is part of it: the answers are the reference's, which has
   no shared mutable state at all.  The hypothesis that the reference search finishes is itself a
   theorem whenever the engine finishes (C01_engine_finishes_then_reference_does), except for programs
   with a cut directly inside not(..) / time(..), which the reference refuses (the documentation
   does not cover them).

   C01_refines_cut_free is the same theorem for cut-free programs, against Spec/SpecLazy.v.  The eager trace
   semantics Spec/SpecSolve.v (answers up to renaming; `refines_reference`) is a second,
   independently written oracle of the check; no theorem relates it to the other two. *)
From Coq Require Import String.
From Suiron Require Import Model.Term Model.Subst Model.Show Model.Rename Model.Solve Spec.SpecSolve
  Spec.SpecLazy Spec.SpecCut Spec.Refine Proofs.SolveDead Proofs.SolveMisc Proofs.RefinePlain Proofs.RefineDen Proofs.RefineCut Proofs.SolveTimeout Proofs.SolveQuiet Proofs.NotCutInv Proofs.RefineCutConverse.

Theorem C01_refines : forall kb bf q w fs R nd w1 m F R',
  canswers kb bf fs q w = Ok R ->
  make_base_node kb (GCall q) w = Ok (nd, w1) ->
  ask_all kb bf m F nd w1 = Ok R' -> R' = R.
Proof. exact refines_cut. Qed.

(* THE CONVERSE (Proofs/RefineCutConverse.v): the hypothesis that the reference search finishes is not
   needed - it follows from the engine finishing.  For every knowledge base without a cut directly
   inside not(..)/time(..) (kbokb, decidable; the reference refuses such programs by design and says
   Panic): whenever asking the query's node until it reports no answer finishes with R', the
   reference search finishes, for some fuel, with exactly R'. *)
Theorem C01_engine_finishes_then_reference_does : forall kb bf q w nd w1 m F R',
  kbokb kb = true ->
  make_base_node kb (GCall q) w = Ok (nd, w1) -> ask_all kb bf m F nd w1 = Ok R' ->
  exists fs, canswers kb bf fs q w = Ok R'.
Proof. intros kb bf q w nd w1 m F R' H. apply refines_cut_converse_ok. now apply kbokb_kbok. Qed.

(* for ANY knowledge base: the reference finishes with the same result, or refuses the program *)
Theorem C01_converse_any_program : forall kb bf q w nd w1 m F R',
  make_base_node kb (GCall q) w = Ok (nd, w1) -> ask_all kb bf m F nd w1 = Ok R' ->
  (exists fs, canswers kb bf fs q w = Ok R') \/ (exists fs, canswers kb bf fs q w = Panic).
Proof. exact refines_cut_converse. Qed.

(* solve_all reports the same answers, each formatted (`answer_text`: replace_variables, then
   `$Var = value` for the query's variables in argument order - C01_partial_answer_format),
   when no timeout is pending *)
Theorem C01_solve_all_reports_the_reference_answers : forall kb fuel q w fs R nd w1 nd' l w',
  quiet w ->
  canswers kb fuel fs q w = Ok R ->
  make_base_node kb (GCall q) w = Ok (nd, w1) ->
  solve_all fuel kb nd w1 = Ok (nd', l, w') ->
  Forall2 (fun s txt => exists f, answer_text f q s = Ok txt) (fst R) l /\ w' = snd R.
Proof. exact solve_all_refines. Qed.

(* solve, called n times (also beyond exhaustion), no timeout pending: the first n reference answers,
   formatted, then `No more.` for ever *)
Theorem C01_solve_reports_the_reference_answers : forall kb fuel q w fs R nd w1 n txts nd' w',
  quiet w ->
  canswers kb fuel fs q w = Ok R ->
  make_base_node kb (GCall q) w = Ok (nd, w1) ->
  solve_times n fuel kb nd w1 = Ok (txts, nd', w') ->
  Forall2 (solve_text fuel q) (map Some (firstn n (fst R)) ++ repeat None (n - length (fst R))) txts.
Proof. exact solve_refines. Qed.

(* next_solution, called n times (also beyond exhaustion): the first n reference answers, then None for
   ever; from exhaustion on the world is the reference's final world *)
Theorem C01_requests_are_the_reference_answers : forall kb bf nd w rs nd' w',
  Asks kb bf nd w rs nd' w' ->
  forall fs a wE g, ncutb nd = true -> (1 <= fs)%nat -> cden kb bf fs nd w collect = Ok (a, wE, g) ->
    rs = map Some (firstn (length rs) a) ++ repeat None (length rs - length a) /\
    (length a < length rs -> w' = wE)%nat.
Proof. exact asks_are_reference_answers. Qed.

(* the refinement mapping, for every node and every continuation *)
Theorem C01_step_all : forall kb bf F nd w nd' r c w1 fs k R,
  (1 <= fs)%nat -> next kb bf F nd w = Ok (nd', r, c, w1) -> cden kb bf fs nd w k = Ok R ->
  cstepres kb bf fs k R nd' r c w1.
Proof. exact cden_step. Qed.

Theorem C01_fresh_node_all : forall kb bf g f fs ss w nd w' k1 k2 R,
  make_node kb g ss w = Ok (nd, w') -> (f <= fs)%nat -> ckle k1 k2 ->
  csolve kb bf f g ss w k1 = Ok R -> cden kb bf fs nd w' k2 = Ok R.
Proof. exact cden_fresh. Qed.

Theorem C01_refines_cut_free : forall kb bf, plain_kb kb ->
  forall q w fs R nd w1 m F R',
    answers kb bf fs q w = Ok R ->
    make_base_node kb (GCall q) w = Ok (nd, w1) ->
    drainK kb bf m F nd w1 (fun s w' => Ok ([s], w')) = Ok R' -> R' = R.
Proof. exact refines_lazy. Qed.

(* the refinement mapping, for every node of a cut-free search and every continuation *)
Theorem C01_step : forall kb bf, plain_kb kb -> forall F nd w nd' r c w1 fs k R,
  pnode nd -> (1 <= fs)%nat -> next kb bf F nd w = Ok (nd', r, c, w1) -> den kb bf fs nd w k = Ok R ->
  stepres kb bf fs k R nd' r w1.
Proof. exact den_step. Qed.

Theorem C01_fresh_node : forall kb bf g f fs ss w nd w' k1 k2 R,
  plain g = true -> make_node kb g ss w = Ok (nd, w') -> (f <= fs)%nat -> RefineDen.kle k1 k2 ->
  lsolve kb bf f g ss w k1 = Ok R -> den kb bf fs nd w' k2 = Ok R.
Proof. exact den_fresh. Qed.



(* solve_all / solve report each answer as `$Var = value` for the query's variable
   arguments, in argument order, separated by ", ". *)
Theorem C01_partial_answer_format : forall f0 qargs f1 rargs, length qargs = length rargs ->
  format_solution (GCall (TComplex (f0 :: qargs))) (TComplex (f1 :: rargs)) =
  Ok (show_pairs true (var_pairs qargs rargs)).
Proof.
  intros f0 qargs f1 rargs.
  intro H. unfold format_solution. destruct qargs; now apply format_pairs_spec. 
Qed.

(* The answer sequence of a query ends: after the first request without answer nothing more
   comes (multiplicity is not inflated by re-asking). *)
Theorem C01_partial_sequence_ends : forall kb bf fuel nd w nd' c w',
  next kb bf fuel nd w = Ok (nd', None, c, w') ->
  forall m fuel2 w2 rs nd2 w3,
    ask_again kb bf fuel2 m nd' w2 = Ok (rs, nd2, w3) ->
    Forall (fun r => r = None) rs /\ w3 = w2.
Proof. exact exhausted_stays_exhausted. Qed.

(* A call never lets a cut escape: alternatives of the caller are never pruned by a callee. *)
Theorem C01_partial_calls_are_opaque : forall kb bf fuel t ss nobt child idx n w nd' r c w',
  next kb bf fuel (NCall t ss nobt child idx n) w = Ok (nd', r, c, w') -> c = false.
Proof. exact call_absorbs_cut. Qed.

(* non-vacuity of C01_refines_cut_free: p($X) :- n($X), ($X = 2 ; $X = 3).  n(1). n(2). n(3).  |- p($A):
   the reference search and the drained node both finish, with the two answers *)
Definition C01_demo : bool :=
  let X := TVar 0 [36; 88]%N in
  let n i := mkRule (TComplex [TAtom [110%N]; TInt i]) GNil in
  let p := mkRule (TComplex [TAtom [112%N]; X])
                  (GOp OAnd [GCall (TComplex [TAtom [110%N]; X]);
                             GOp OOr [GBip n_unify (Some [X; TInt 2]); GBip n_unify (Some [X; TInt 3])]]) in
  let kb := [([112; 47; 49]%N, [p]); ([110; 47; 49]%N, [n 1%Z; n 2%Z; n 3%Z])] in
  let q := TComplex [TAtom [112%N]; TVar 1 [36; 65]%N] in
  let w := mkWorld 1 false None [] in
  match answers kb 50 50 q w, make_base_node kb (GCall q) w with
  | Ok ([a; b], w2), Ok (nd, w1) =>
      match drainK kb 50 9 60 nd w1 (fun s w' => Ok ([s], w')) with
      | Ok ([a'; b'], w2') => N.eqb (next_id w2) (next_id w2')
      | _ => false
      end
  | _, _ => false
  end.
Example C01_refines_witness : C01_demo = true.
Proof. vm_compute. reflexivity. Qed.

(* non-vacuity of C01_refines with cut and not:
   p($X) :- n($X), not(e($X)).   p($X) :- n($X), $X = 2, !.   p(7).   n(1). n(2). n(3).  e(3).  |- p($A)
   gives 1, 2 (first clause), then 2 (second clause, cut: no p(7)) - in the reference and on the machine *)
Definition C01_demo_cut : bool :=
  let X := TVar 0 [36; 88]%N in
  let at1 c := TAtom [c] in
  let n i := mkRule (TComplex [at1 110%N; TInt i]) GNil in
  let p1 := mkRule (TComplex [at1 112%N; X])
              (GOp OAnd [GCall (TComplex [at1 110%N; X]); GOp ONot [GCall (TComplex [at1 101%N; X])]]) in
  let p2 := mkRule (TComplex [at1 112%N; X])
              (GOp OAnd [GCall (TComplex [at1 110%N; X]); GBip n_unify (Some [X; TInt 2]); GBip n_cut None]) in
  let p3 := mkRule (TComplex [at1 112%N; TInt 7]) GNil in
  let kb := [([112; 47; 49]%N, [p1; p2; p3]); ([110; 47; 49]%N, [n 1%Z; n 2%Z; n 3%Z]);
             ([101; 47; 49]%N, [mkRule (TComplex [at1 101%N; TInt 3]) GNil])] in
  let q := TComplex [at1 112%N; TVar 1 [36; 65]%N] in
  let w := mkWorld 1 false None [] in
  match canswers kb 50 50 q w, make_base_node kb (GCall q) w with
  | Ok ([a; b; c], w2), Ok (nd, w1) =>
      match ask_all kb 50 9 60 nd w1 with
      | Ok ([a'; b'; c'], w2') => N.eqb (next_id w2) (next_id w2')
      | _ => false
      end
  | _, _ => false
  end.
Example C01_refines_cut_witness : C01_demo_cut = true.
Proof. vm_compute. reflexivity. Qed.

Example C01_witness :
  format_solution (GCall (TComplex [TAtom [112%N]; TVar 1 [36; 65]%N; TInt 3; TVar 2 [36; 66]%N]))
                  (TComplex [TAtom [112%N]; TInt 7; TInt 3; TAtom [98%N]])
  = Ok (s2l "$A = 7, $B = b"%string).
Proof. vm_compute. reflexivity. Qed.

Check C01_partial_answer_format : forall f0 qargs f1 rargs, length qargs = length rargs ->
  format_solution (GCall (TComplex (f0 :: qargs))) (TComplex (f1 :: rargs)) =
  Ok (show_pairs true (var_pairs qargs rargs)).

Print Assumptions C01_refines.
Print Assumptions C01_solve_all_reports_the_reference_answers.
Print Assumptions C01_solve_reports_the_reference_answers.
Print Assumptions C01_requests_are_the_reference_answers.
Print Assumptions C01_engine_finishes_then_reference_does.
Print Assumptions C01_converse_any_program.
Print Assumptions C01_step_all.
Print Assumptions C01_fresh_node_all.
Print Assumptions C01_refines_cut_free.
Print Assumptions C01_step.
Print Assumptions C01_fresh_node.
Print Assumptions C01_partial_answer_format.
Print Assumptions C01_partial_sequence_ends.
Print Assumptions C01_partial_calls_are_opaque.

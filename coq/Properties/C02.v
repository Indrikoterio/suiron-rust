(* C02 - the textbook law of cut, for the reference search Spec/SpecCut.v:

       g1, !, rest     is     once(g1), rest     and the call that chose the clause is committed.

   C02_first_answer (A): a goal without `!` run with a continuation that always stops the search
     is: the FIRST answer of the goal (the `halt1` search, what not(..) and time(..) use), then the
     continuation called once on it, with the flag false, in the world reached at that point; the
     continuation's result - answers, world and signal - is the result, unchanged (the signal is
     bumped by kbump on the way into each call and un-bumped by after_body on the way out).  No
     answer: the continuation is never called, the result is ([], world reached, Go).
   C02_cut_is_once (B): `g1, !, rest` with g1 cut-free: no answer of g1 -> ([], w1, Go) (the cut is
     not reached; NOT a cut signal); first answer s1 of g1 in w1 -> what `rest` gives from (s1, w1)
     (`and_then`: `rest` continued by `kwrap true k`; k itself, told of the cut, when rest = []),
     the signal made a Cut by join0.  g1 is never retried.
   C02_cut_commits_the_call_reference (C): a clause with that body whose head unifies: g1 without
     answer -> the call goes on with clause idx+1 from the world reached; otherwise the call
     returns what `rest` returns from the first answer of g1, the signal leaving the call
     (leave_call: the clause's own Cut 0 is absorbed - Go -, Cut (S m) -> Cut m, Halt -> Halt), and
     NO later clause is consulted: the result is the same for every clause count n' > idx.
   C02_cut_commits_the_call_kb: the same, the clause given as stored in the knowledge base
     (renaming apart keeps the shape `g1, !, rest` and cut-freeness). *)
From Suiron Require Import Model.Term Model.Subst Model.Builtins Model.Rename Model.Unify Model.Solve
  Spec.SpecCut Proofs.RenameProofs Proofs.CutOnce.
Open Scope N_scope.

(* the vocabulary of the statements (Proofs/CutOnce.v) *)
Example C02once_cutfree_bip : forall fn ts, cutfree (GBip fn ts) = negb (str_eqb fn n_cut).
Proof. reflexivity. Qed.
Example C02once_cutfree_op : forall k gs, cutfree (GOp k gs) = forallb cutfree gs.
Proof. exact cutfree_op. Qed.
Example C02once_cutfree_call : forall t, cutfree (GCall t) = true.
Proof. reflexivity. Qed.
Example C02once_and_then_nil : forall kb bf f s w k, and_then kb bf f [] s w k = k s w true.
Proof. reflexivity. Qed.
Example C02once_and_then_cons : forall kb bf f g r s w k,
  and_then kb bf f (g :: r) s w k = csolve kb bf f (GOp OAnd (g :: r)) s w (kwrap true k).
Proof. reflexivity. Qed.
Example C02once_leave_call : leave_call (Cut 0) = Go /\ (forall m, leave_call (Cut (S m)) = Cut m) /\ leave_call Halt = Halt.
Proof. repeat split. Qed.

Theorem C02_first_answer : forall kb bf fuel g s w k a w' sg,
  cutfree g = true ->
  (forall s1 w1 c a1 w2 sg1, k s1 w1 c = Ok (a1, w2, sg1) -> sg1 <> Go) ->
  csolve kb bf fuel g s w k = Ok (a, w', sg) ->
  match csolve kb bf fuel g s w halt1 with
  | Ok ([], w1, sg1) => a = [] /\ w' = w1 /\ sg = Go /\ sg1 = Go
  | Ok ([s1], w1, Halt) => k s1 w1 false = Ok (a, w', sg)
  | _ => False
  end.
Proof. exact first_answer. Qed.

(* the first answer does not depend on the fuel of the run that finds it *)
Theorem C02_first_answer_fuel : forall kb bf f1 f2 g s w h1 h2,
  csolve kb bf f1 g s w halt1 = Ok h1 -> csolve kb bf f2 g s w halt1 = Ok h2 -> h1 = h2.
Proof.
  intros kb bf f1 f2 g s w h1 h2 H1 H2.
  pose proof (RefineCut.csolve_mono kb bf f1 (Nat.max f1 f2) _ _ _ _ _ _ (Nat.le_max_l _ _) (RefineCut.ckle_refl _) H1) as E1.
  pose proof (RefineCut.csolve_mono kb bf f2 (Nat.max f1 f2) _ _ _ _ _ _ (Nat.le_max_r _ _) (RefineCut.ckle_refl _) H2) as E2.
  congruence.
Qed.

Theorem C02_cut_is_once : forall kb bf fuel g1 rest s w k a w' sg,
  cutfree g1 = true ->
  csolve kb bf fuel (GOp OAnd (g1 :: GBip n_cut None :: rest)) s w k = Ok (a, w', sg) ->
  match csolve kb bf fuel g1 s w halt1 with
  | Ok ([], w1, _) => a = [] /\ w' = w1 /\ sg = Go
  | Ok ([s1], w1, Halt) =>
      exists sg0, and_then kb bf fuel rest s1 w1 k = Ok (a, w', sg0) /\ sg = join0 sg0
  | _ => False
  end.
Proof. exact cut_is_once. Qed.

Theorem C02_cut_commits_the_call_reference : forall kb bf f t s key idx n w k rl ctr s' g1 rest R,
  (n <=? idx) = false ->
  get_rule kb key idx (next_id w) = Ok (rl, ctr) ->
  unify bf (r_head rl) t s = Ok (Some s') ->
  r_body rl = GOp OAnd (g1 :: GBip n_cut None :: rest) ->
  cutfree g1 = true ->
  cclauses kb bf (S f) t s key idx n w k = Ok R ->
  match csolve kb bf f g1 s' (w_set_id w ctr) halt1 with
  | Ok ([], w2, _) => cclauses kb bf f t s key (idx + 1) n w2 k = Ok R
  | Ok ([s1], w2, Halt) =>
      exists a w' sg0,
        and_then kb bf f rest s1 w2 (kbump k) = Ok (a, w', sg0) /\
        R = (a, w', leave_call (join0 sg0)) /\
        forall n', (n' <=? idx) = false -> cclauses kb bf (S f) t s key idx n' w k = Ok R
  | _ => False
  end.
Proof. exact cut_commits_the_call. Qed.

Theorem C02_cut_commits_the_call_kb : forall kb bf f t s key idx n w k rules r0 g1 rest R,
  kb_get kb key = Some rules -> nth_error rules (N.to_nat idx) = Some r0 ->
  r_body r0 = GOp OAnd (g1 :: GBip n_cut None :: rest) -> cutfree g1 = true ->
  (n <=? idx) = false ->
  cclauses kb bf (S f) t s key idx n w k = Ok R ->
  exists rl ctr g1' rest',
    get_rule kb key idx (next_id w) = Ok (rl, ctr) /\
    r_body rl = GOp OAnd (g1' :: GBip n_cut None :: rest') /\
    erase_goal g1' = erase_goal g1 /\ map erase_goal rest' = map erase_goal rest /\
    match unify bf (r_head rl) t s with
    | Ok None => cclauses kb bf f t s key (idx + 1) n (w_set_id (w_set_id w ctr) (next_id w)) k = Ok R
    | Ok (Some s') =>
        match csolve kb bf f g1' s' (w_set_id w ctr) halt1 with
        | Ok ([], w2, _) => cclauses kb bf f t s key (idx + 1) n w2 k = Ok R
        | Ok ([s1], w2, Halt) =>
            exists a w' sg0,
              and_then kb bf f rest' s1 w2 (kbump k) = Ok (a, w', sg0) /\
              R = (a, w', leave_call (join0 sg0)) /\
              forall n', (n' <=? idx) = false -> cclauses kb bf (S f) t s key idx n' w k = Ok R
        | _ => False
        end
    | _ => False
    end.
Proof.
  intros kb bf f t s key idx n w k rules r0 g1 rest R Hkb Hnth Hb Hcf Hn H.
  pose proof H as H0. rewrite cclauses_S in H0. unfold cclauses_body in H0. rewrite Hn in H0.
  destruct (get_rule kb key idx (next_id w)) as [[rl ctr]| |] eqn:Hg; cbn [bind] in H0; try discriminate.
  destruct (fetched_clause_shape _ _ _ _ _ _ _ _ _ _ Hg Hkb Hnth Hb Hcf) as (g1' & rest' & Hb' & Hcf' & E1 & E2).
  exists rl, ctr, g1', rest'. split; [reflexivity|]. split; [exact Hb'|]. split; [exact E1|]. split; [exact E2|].
  destruct (unify bf (r_head rl) t s) as [[s'|]| |] eqn:Hu; cbn [bind] in H0; try discriminate.
  - exact (cut_commits_the_call kb bf _ _ _ _ _ _ _ _ _ _ _ _ _ _ Hn Hg Hu Hb' Hcf' H).
  - exact H0.
Qed.

(* non-vacuity:   a($X) :- n($X), !, e($X).   a(9).   n(1). n(2). n(3).   e(2). e(1).   |- a($A)
   with the cut: $A = 1 only (the first n; not 2, although e(2) holds; not 9);
   without it:   $A = 1, 2, 9 *)
Definition C02once_at (c : N) : term := TAtom [c].
Definition C02once_X : term := TVar 0 [36; 88].
Definition C02once_A : term := TVar 1 [36; 65].
Definition C02once_fact (p : N) (i : Z) : rule := mkRule (TComplex [C02once_at p; TInt i]) GNil.
Definition C02once_kb (withcut : bool) : kbase :=
  [([97; 47; 49], [mkRule (TComplex [C02once_at 97; C02once_X])
                     (GOp OAnd (GCall (TComplex [C02once_at 110; C02once_X])
                                :: (if withcut then [GBip n_cut None] else [])
                                ++ [GCall (TComplex [C02once_at 101; C02once_X])]));
                   C02once_fact 97 9]);
   ([110; 47; 49], [C02once_fact 110 1; C02once_fact 110 2; C02once_fact 110 3]);
   ([101; 47; 49], [C02once_fact 101 2; C02once_fact 101 1])].
Definition C02once_q : term := TComplex [C02once_at 97; C02once_A].
Definition C02once_w : world := mkWorld 1 false None [].
Definition C02once_vals (r : res (list subst * world)) : list (res (option term)) :=
  match r with Ok (l, _) => map (get_ground_term 20 C02once_A) l | _ => [] end.

Example C02once_with_cut :
  C02once_vals (canswers (C02once_kb true) 50 60 C02once_q C02once_w) = [Ok (Some (TInt 1))].
Proof. vm_compute. reflexivity. Qed.
Example C02once_without_cut :
  C02once_vals (canswers (C02once_kb false) 50 60 C02once_q C02once_w)
  = [Ok (Some (TInt 1)); Ok (Some (TInt 2)); Ok (Some (TInt 9))].
Proof. vm_compute. reflexivity. Qed.

(* the hypotheses of C02_cut_commits_the_call_reference hold for clause 0 of a/1, called with two
   clauses to consult; the first answer of n($X) is $X = 1; the call returns the one answer of
   e($X) from there, signal Go, and with n' = 1 (no second clause) returns the same *)
Definition C02once_demo : bool :=
  let kb := C02once_kb true in
  let key := [97; 47; 49] in
  let kall : ckont := fun s w _ => Ok ([s], w, Go) in
  let is1 (s : subst) := match get_ground_term 20 C02once_A s with Ok (Some (TInt 1)) => true | _ => false end in
  match get_rule kb key 0 (next_id C02once_w) with
  | Ok (rl, ctr) =>
      match unify 50 (r_head rl) C02once_q [], r_body rl with
      | Ok (Some s'), GOp OAnd (g1 :: GBip c None :: rest) =>
          str_eqb c n_cut && cutfree g1 &&
          match csolve kb 50 39 g1 s' (w_set_id C02once_w ctr) halt1,
                cclauses kb 50 40 C02once_q [] key 0 2 C02once_w kall,
                cclauses kb 50 40 C02once_q [] key 0 1 C02once_w kall with
          | Ok ([s1], w2, Halt), Ok ([a], w', Go), Ok ([b], w'', Go) =>
              match and_then kb 50 39 rest s1 w2 (kbump kall) with
              | Ok ([a'], _, sg0) =>
                  is1 s1 && is1 a && is1 b && is1 a' &&
                  match leave_call (join0 sg0) with Go => true | _ => false end
              | _ => false
              end
          | _, _, _ => false
          end
      | _, _ => false
      end
  | _ => false
  end.
Example C02once_witness : C02once_demo = true.
Proof. vm_compute. reflexivity. Qed.

Print Assumptions C02_first_answer.
Print Assumptions C02_first_answer_fuel.
Print Assumptions C02_cut_is_once.
Print Assumptions C02_cut_commits_the_call_reference.
Print Assumptions C02_cut_commits_the_call_kb.

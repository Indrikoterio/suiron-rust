(* C19 - Canonical source text parses and prints back unchanged.

   PROVED, with the REAL parsers throughout (no hypothesis about leaf parsers left):
     C19_closed_rules   for every closed rule r - head a call f(t1..tn), n >= 0, body built with `,` `;`
                        (any nesting) from leaves: calls, built-in predicates in functional notation,
                        `l = r`, `!`, `fail`, `nl`, not(leaf), time(leaf); all arguments canonical terms -
                        Display gives the canonical text rule_text r, and parse_rule of that text
                        gives r back (Proofs/RuleRoundtripClosed.v; `closed_ruleb` is an executable
                        test implying the class);
     C19_roundtrip_terms  parse_term (show_term t) = t for every canonical term: atoms
                        [A-Za-z0-9_] at both ends, [A-Za-z0-9_ ] between (not all digits), 64-bit
                        integers, variables $[A-Za-z][A-Za-z0-9_]* with id 0 and $_, complex terms (functor [a-z][A-Za-z0-9_]*, not a
                        function name; text up to the 1000 characters validate_complex allows), lists
                        with and without tail variable or `$_` tail, nested without bound;
     C19_roundtrip_goals / _rules  the same one level up for ANY leaf parser that inverts Display on
                        the leaves (Proofs/GoalRoundtrip.v).
   NOT covered by a theorem: floats, quoted atoms, functors/variable names with other characters,
   not/time over `=`; these are evaluated by the correspondence check (print by the real Display,
   parse by the real parser, compare).  The proof work found real disagreements between printer and
   parser; two were repaired in the crate ([a | $_] rejected: 5e5ae04; go() rejected: 0f55f67), the
   others are outside the documented syntax and are listed, each with a compiled Example, in the
   header of Properties/C19closed.v. *)
From Suiron Require Import Model.PResult Model.ParseTerm Model.ParseGoal Model.Tokenizer Model.ParseRule
  Model.ShowGoal Model.Show Proofs.TokenizerProofs Proofs.GoalRoundtrip Proofs.ParseRoundtrip Proofs.ParseTermProofs Proofs.TermRoundtripMain Proofs.TermRoundtripCheck Proofs.GoalLeafParse Proofs.RuleRoundtripClosed Proofs.RuleRoundtripCheck.

Theorem C19_roundtrip_goals : forall (ps : str -> res (presult goal)) g fuel,
  canonical_goal ps g -> (2 * length (text g) + 3 <= fuel)%nat ->
  show_goal g = Ok (text g) /\ generate_goal ps fuel (text g) = Ok (POk g).
Proof. exact roundtrip_goal. Qed.

Theorem C19_roundtrip_rules :
  forall (ps : str -> res (presult goal)) (pc : str -> res (presult term)) r fuel,
  canonical_rule ps pc r -> (2 * length (rule_text r) + 3 <= fuel)%nat ->
  show_rule r = Ok (rule_text r) /\ parse_rule ps pc fuel (rule_text r) = Ok (POk r).
Proof. exact roundtrip_rule. Qed.

Theorem C19_neutral_criterion : forall t, neutralb t = true -> neutral t.
Proof. exact neutralb_sound. Qed.

Theorem C19_partial_integer_terms : forall fuel z,
  (- 2 ^ 63 <= z < 2 ^ 63)%Z ->
  parse_term (S fuel) (show_term (TInt z)) = Ok (POk (TInt z)).
Proof. exact parse_term_show_int. Qed.

Theorem C19_roundtrip_terms : forall t fuel,
  canonical t -> (parse_fuel (show_term t) <= fuel)%nat ->
  parse_term fuel (show_term t) = Ok (POk t).
Proof. exact parse_term_show_canonical. Qed.

Theorem C19_roundtrip_terms_checked : forall t fuel,
  canonicalb t = true -> (parse_fuel (show_term t) <= fuel)%nat ->
  parse_term fuel (show_term t) = Ok (POk t).
Proof. exact canonicalb_roundtrip. Qed.

Theorem C19_closed_rules : forall r F fuel,
  closed_rule r -> (length (rule_text r) + 2 <= F)%nat -> (2 * length (rule_text r) + 3 <= fuel)%nat ->
  show_rule r = Ok (rule_text r) /\
  parse_rule (parse_subgoal F) (parse_complex F) fuel (rule_text r) = Ok (POk r).
Proof. exact roundtrip_rule_closed. Qed.

Theorem C19_closed_goals : forall g F fuel,
  closed_goal g -> (length (text g) + 2 <= F)%nat -> (2 * length (text g) + 3 <= fuel)%nat ->
  show_goal g = Ok (text g) /\ generate_goal (parse_subgoal F) fuel (text g) = Ok (POk g).
Proof. exact roundtrip_goal_closed. Qed.

Check C19_roundtrip_goals : forall (ps : str -> res (presult goal)) g fuel,
  canonical_goal ps g -> (2 * length (text g) + 3 <= fuel)%nat ->
  show_goal g = Ok (text g) /\ generate_goal ps fuel (text g) = Ok (POk g).

Print Assumptions C19_roundtrip_goals.
Print Assumptions C19_roundtrip_rules.
Print Assumptions C19_neutral_criterion.
Print Assumptions C19_partial_integer_terms.
Print Assumptions C19_roundtrip_terms.
Print Assumptions C19_closed_rules.
Print Assumptions C19_closed_goals.
Print Assumptions C19_roundtrip_terms_checked.

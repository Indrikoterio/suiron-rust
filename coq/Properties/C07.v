(* C07 - Unification is symmetric.

   PROVED (C07_symmetric_; Proofs/UnifySemTeq.v): on plain terms (no `$_`, no NaN, atom functors,
   parser-built lists) and plain substitution sets, if A = B succeeds with a result that has a
   solution in finite trees (i.e. no occurs check was needed), then B = A - with any fuel on which it
   returns - succeeds too, and the two results have exactly the same solutions: every variable gets
   the same value under both.  With `$_` the order of operands can matter (C06.v: anon_order), and
   the formulation with one fuel for both orders (C07_full, Properties/C07base.v) is false of the model
   (C07_full_false: the swapped order may need one more unit of fuel - a modelling artefact).  The
   syntactic facts are in Properties/C07base.v (checked by the same gate). *)
From Suiron Require Import Model.Term Model.Subst Model.Unify Spec.SpecUnify Spec.SpecUnifySem
  Proofs.UnifyInv Proofs.UnifySound Proofs.UnifyProps Proofs.UnifySemTeq Properties.C07base Properties.C06.

Theorem C07_symmetric_ : forall fuel fuel' a b ss s1 r2 sigma0,
  plain a = true -> plain b = true -> plain_ss ss ->
  unify fuel a b ss = Ok (Some s1) -> solves sigma0 s1 -> unify fuel' b a ss = Ok r2 ->
  exists s2, r2 = Some s2 /\ forall sigma, solves sigma s1 <-> solves sigma s2.
Proof. exact C07_symmetric. Qed.

Theorem C07_one_fuel_for_both_orders_is_false : ~ C07_full.
Proof. exact C07_full_false. Qed.

Print Assumptions C07_symmetric_.
Print Assumptions C07_one_fuel_for_both_orders_is_false.

(* C22, law of the reference search (Spec/SpecCut.v) for cut-free programs: the answers of a goal do not depend
   on what earlier searches have written.  `weq w w'`: the two worlds agree on the variable-id counter, the stop flag
   and the stop hook (Proofs/SldOrder.v) - they may differ in the output written so far, which is the only part of
   the world that an earlier query leaves behind once make_query has reset counter and flag (Properties/C22.v). *)
From Suiron Require Import Model.Term Model.Subst Model.Solve Model.Builtins Model.Rename Spec.SpecCut
  Proofs.CutOnce Proofs.SldOrder.
Open Scope N_scope.

Theorem C22_answers_forget_output : forall kb bf, cutfree_kb kb = true ->
  forall fuel g s w w' l w1, cutfree g = true -> weq w w' ->
  answers kb bf fuel g s w = Ok (l, w1) ->
  exists w1', answers kb bf fuel g s w' = Ok (l, w1') /\ weq w1 w1'.
Proof.
  intros kb bf Hkb fuel g s w w' l w1 Hg Hw H. unfold answers, drop_sig in H.
  destruct (csolve kb bf fuel g s w collect) as [[[l1 w2] sg]| |] eqn:E; cbn [bind] in H; try discriminate.
  inversion H; subst. rewrite (sld_continuation kb bf Hkb _ _ _ _ _ Hg) in E.
  assert (forall s1 v a v' sg1, collect s1 v false = Ok (a, v', sg1) -> a = [s1] /\ weq v v' /\ sg1 = Go) as Hc.
  { intros s1 v a v' sg1 E1. inversion E1; subst. split; [reflexivity|]. split; [apply weq_refl|reflexivity]. }
  destruct (sfold_output_only _ collect Hc _ _ _ _ _ (proj1 (sld_weq kb bf fuel) g s w w' Hw) E) as (l0 & w0 & E0 & -> & Hw0 & _).
  assert (flat_map (fun s1 : subst => [s1]) l0 = l0) as ->.
  { clear. induction l0 as [|x r IH]; [reflexivity|]. cbn [flat_map app]. now rewrite IH. }
  exists w0. rewrite (answers_sld kb bf Hkb _ _ _ _ Hg). split; [exact E0|now apply weq_sym].
Qed.

(* non-vacuity.  n(1). n(2).   ?- n($X), print($X).   from a world with empty output and from one in which "xyz" has
   been written: the same two answers *)
Example C22_laws_witness :
  let kb : kbase := [([110; 47; 49], [mkRule (TComplex [TAtom [110]; TInt 1]) GNil; mkRule (TComplex [TAtom [110]; TInt 2]) GNil])] in
  let g := GOp OAnd [GCall (TComplex [TAtom [110]; TVar 1 [36; 88]]); GBip [112; 114; 105; 110; 116] (Some [TVar 1 [36; 88]])] in
  let w := mkWorld 1 false None [] in
  let w' := mkWorld 1 false None [120; 121; 122] in
  cutfree_kb kb = true /\ cutfree g = true /\ weq w w' /\
  exists a1 a2 w1 w1', answers kb 20 20 g [] w = Ok ([a1; a2], w1) /\ answers kb 20 20 g [] w' = Ok ([a1; a2], w1') /\
                       out w1 = [49; 50] /\ out w1' = [120; 121; 122; 49; 50].
Proof.
  cbn zeta. split; [reflexivity|]. split; [reflexivity|]. split; [repeat split|].
  do 4 eexists. refine (conj _ (conj _ (conj _ _))); vm_compute; reflexivity.
Qed.

Print Assumptions C22_answers_forget_output.

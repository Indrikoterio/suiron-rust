(* C19 (goal and rule level) - canonical goals and rules print as their canonical text and
   that text parses back to them:  generate_goal (show_goal g) = Ok g,
   parse_rule (show_rule r) = Ok r.

   The leaf parsers are parameters `ps` (parse_subgoal) and `pc` (parse_complex).
   A canonical goal (Proofs/GoalRoundtrip.v, `canonical_goal ps`) is
     - a leaf l (anything but And / Or / Nil: a call, a built-in predicate, `$X = 1`, cut,
       fail, nl, not(..), time(..)) with `leaf_ok ps l`: Display produces a text t, the text
       is `neutral` for the tokenizer, and ps t = Ok l;
     - And gs / Or gs with at least two operands, all canonical (any nesting).
   `neutral t` says that the tokenizer's scan passes over t without emitting a token or
   changing its stack; `neutralb` is a decidable sufficient condition (quotes closed inside
   t, every `(` after a letter/digit/_/-, brackets matched, no bare comma, semicolon, double quote, `#`, `@`).
   A canonical rule has a head term whose text is accepted by pc (facts) and, followed by
   one space, by ps (rules) - the real parse_subgoal trims its argument -, and neither head
   nor body text contains `:-`.

   These theorems are about the crate AFTER the repairs
     fix: parse_rule accepts short facts such as `b.`
     fix: a conjunction inside a disjunction is no longer dropped
     fix: a disjunction or conjunction nested in another operator is displayed in parentheses
     fix: group_tokens skips the tokens a nested group covers, not its number of children *)
From Coq Require Import String.
From Suiron Require Import Model.Tokenizer Model.ParseRule Model.ShowGoal.
From Suiron Require Import Proofs.TokenizerProofs Proofs.GoalRoundtrip.
Open Scope N_scope.
Open Scope string_scope.

Theorem C19_roundtrip_goals : forall (ps : str -> res (presult goal)) g fuel,
  canonical_goal ps g -> (2 * length (text g) + 3 <= fuel)%nat ->
  show_goal g = Ok (text g) /\ generate_goal ps fuel (text g) = Ok (POk g).
Proof. exact roundtrip_goal. Qed.

Theorem C19_roundtrip_rules :
  forall (ps : str -> res (presult goal)) (pc : str -> res (presult term)) r fuel,
  canonical_rule ps pc r -> (2 * length (rule_text r) + 3 <= fuel)%nat ->
  show_rule r = Ok (rule_text r) /\ parse_rule ps pc fuel (rule_text r) = Ok (POk r).
Proof. exact roundtrip_rule. Qed.

(* the decidable criterion for leaf texts *)
Theorem C19_neutral_criterion : forall t, neutralb t = true -> neutral t.
Proof. exact neutralb_sound. Qed.

(* what Display does with nested operators (the canonical text) *)
Example C19_canonical_text :
  let a := GCall (TComplex [TAtom (s2l "a"); TInt 1]) in
  let u := GBip (s2l "unify") (Some [TVar 0 (s2l "$X"); TInt 1]) in
  let cut := GBip (s2l "!") None in
  show_goal (GOp OAnd [GOp OOr [a; GOp OAnd [u; cut]]; GOp OAnd [cut; a]; u]) =
    Ok (s2l "(a(1); $X = 1, !), (!, a(1)), $X = 1") /\
  show_goal (GOp OOr [GOp OOr [a; u]; GOp OAnd [a; GOp OOr [cut; a]]]) =
    Ok (s2l "(a(1); $X = 1); a(1), (!; a(1))").
Proof. vm_compute. split; reflexivity. Qed.

(* non-vacuity: a leaf parser for three leaf texts, and a nested canonical goal and rule *)
Section Witness.
  Let a := GCall (TComplex [TAtom (s2l "a"); TInt 1]).
  Let u := GBip (s2l "unify") (Some [TVar 0 (s2l "$X"); TInt 1]).
  Let cut := GBip (s2l "!") None.
  Let h := TComplex [TAtom (s2l "h"); TVar 0 (s2l "$X")].

  Definition w_ps (s : str) : res (presult goal) :=
    let t := tk_trim s in
    if str_eqb t (s2l "a(1)") then Ok (POk a)
    else if str_eqb t (s2l "$X = 1") then Ok (POk u)
    else if str_eqb t (s2l "!") then Ok (POk cut)
    else if str_eqb t (s2l "h($X)") then Ok (POk (GCall h))
    else Ok PErr.
  Definition w_pc (s : str) : res (presult term) :=
    if str_eqb (tk_trim s) (s2l "h($X)") then Ok (POk h) else Ok PErr.

  Lemma w_leaf l t :
    is_leaf_goal l = true -> show_goal l = Ok t -> neutralb t = true -> w_ps t = Ok (POk l) ->
    canonical_goal w_ps l.
  Proof.
    intros H1 H2 H3 H4. apply can_leaf. split; [exact H1|]. exists t.
    split; [exact H2|]. split; [now apply neutralb_sound|exact H4].
  Qed.

  Let g := GOp OAnd [GOp OOr [a; GOp OAnd [u; cut]]; GOp OAnd [cut; a]; u].

  Lemma w_canonical : canonical_goal w_ps g.
  Proof.
    assert (Ha : canonical_goal w_ps a) by (eapply w_leaf; reflexivity).
    assert (Hu : canonical_goal w_ps u) by (eapply w_leaf; reflexivity).
    assert (Hc : canonical_goal w_ps cut) by (eapply w_leaf; reflexivity).
    repeat first [ apply can_and; [simpl; repeat constructor|]
                 | apply can_or; [simpl; repeat constructor|]
                 | apply Forall_cons | apply Forall_nil | assumption ].
  Qed.

  Example C19_witness_goal :
    generate_goal w_ps 100 (s2l "(a(1); $X = 1, !), (!, a(1)), $X = 1") = Ok (POk g).
  Proof.
    destruct (C19_roundtrip_goals w_ps g 100 w_canonical) as [_ H].
    - apply Nat.leb_le. reflexivity.
    - exact H.
  Qed.

  Example C19_witness_rule :
    parse_rule w_ps w_pc 100 (s2l "h($X) :- (a(1); $X = 1, !), (!, a(1)), $X = 1.") =
      Ok (POk (mkRule h g)) /\
    parse_rule w_ps w_pc 100 (s2l "h($X).") = Ok (POk (mkRule h GNil)).
  Proof.
    split.
    - destruct (C19_roundtrip_rules w_ps w_pc (mkRule h g) 100) as [_ H].
      + split.
        * constructor; try reflexivity. exists 104, (s2l "($X)"). split; reflexivity.
        * right. split; [exact w_canonical|reflexivity].
      + apply Nat.leb_le. reflexivity.
      + exact H.
    - destruct (C19_roundtrip_rules w_ps w_pc (mkRule h GNil) 100) as [_ H].
      + split.
        * constructor; try reflexivity. exists 104, (s2l "($X)"). split; reflexivity.
        * now left.
      + apply Nat.leb_le. reflexivity.
      + exact H.
  Qed.
End Witness.

Check C19_roundtrip_goals : forall (ps : str -> res (presult goal)) g fuel,
  canonical_goal ps g -> (2 * length (text g) + 3 <= fuel)%nat ->
  show_goal g = Ok (text g) /\ generate_goal ps fuel (text g) = Ok (POk g).

Print Assumptions C19_roundtrip_goals.
Print Assumptions C19_roundtrip_rules.
Print Assumptions C19_neutral_criterion.

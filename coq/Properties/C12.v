(* C12 - Arithmetic functions compute the documented values. *)
From Suiron Require Import Model.Term Model.Subst Model.Arith Spec.SpecCompare Spec.SpecArith Proofs.ArithProofs.
Open Scope Z_scope.

(* Every finished evaluation of add / subtract / multiply / divide: the arguments resolve
   (through any variable chains) to numbers `ns`, the value is the left-to-right fold of
   `ns` — in Z with truncating division when all are integers, in IEEE-754 binary64
   (Flocq, integers converted, round to nearest even) when any is a float — and no integer
   step overflowed or divided by zero. *)
Theorem C12_evaluate_is_fold : forall fuel op args ss v,
  evaluate fuel op args ss = Ok v ->
  exists ns, resolve_nums ss args ns /\ spec_value (aop_of op) ns = Some v /\ ints_safe (aop_of op) ns.
Proof.
  intros fuel op args ss v H. destruct (evaluate_resolved _ _ _ _ _ H) as (sn & E & Hr).
  exists (map num_of sn). split; [exact Hr|]. apply (evaluate_numbers _ _ _ _ _ _ E), H.
Qed.

(* Inside the claim (arguments resolve to numbers; no integer overflow or zero divisor) the
   evaluation finishes, and with exactly that value. *)
Theorem C12_evaluate_complete : forall op args ss ns v,
  resolve_nums ss args ns -> ints_safe (aop_of op) ns -> spec_value (aop_of op) ns = Some v ->
  exists fuel0, forall fuel, (fuel0 <= fuel)%nat -> evaluate fuel op args ss = Ok v.
Proof.
  intros op args ss ns v Hr Hs Hv. destruct (get_numbers_complete _ _ _ Hr) as [f0 Hf]. exists f0.
  intros fuel Hle. destruct (Hf fuel Hle) as (sn & E & <-). apply (evaluate_numbers _ _ _ _ _ _ E); auto.
Qed.

(* the hypotheses are satisfiable by a non-trivial input: 7 / $X / 2 with $X -> $Y -> -2 *)
Example C12_nonvacuous :
  let ss := [None; Some (TVar 2 []); Some (TInt (-2))] in
  resolve_nums ss [TInt 7; TVar 1 []; TInt 2] [NumI 7; NumI (-2); NumI 2] /\
  ints_safe SDiv [NumI 7; NumI (-2); NumI 2] /\
  spec_value SDiv [NumI 7; NumI (-2); NumI 2] = Some (TInt (-1)).
Proof.
  simpl. split; [|split; [|reflexivity]].
  - repeat constructor. eapply chain_step; [reflexivity|]. eapply chain_step; [reflexivity|].
    now constructor.
  - right. simpl. unfold in_i64. repeat split; try discriminate; vm_compute; congruence.
Qed.

Check C12_evaluate_is_fold : forall fuel op args ss v,
  evaluate fuel op args ss = Ok v ->
  exists ns, resolve_nums ss args ns /\ spec_value (aop_of op) ns = Some v /\ ints_safe (aop_of op) ns.

Print Assumptions C12_evaluate_is_fold.
Print Assumptions C12_evaluate_complete.

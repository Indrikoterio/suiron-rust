(* C18 (term-level entry points) - Parsers return a value or an error for every input,
   never panic.  For each entry point p modelled in Model/ParseTerm.v and Model/ParseGoal.v:
   for EVERY string s and EVERY fuel >= parse_fuel s = length s + 2 (linear in the length;
   one unit of fuel per nesting level of a recursive parser call), `p fuel s` is
   `Ok (POk v)` or `Ok PErr` - never Panic, never OutOfFuel.
   The goal/rule level (generate_goal, parse_rule) is not in this file. *)
From Coq Require Import String.
From Suiron Require Import Model.ParseTerm Model.ParseGoal Proofs.ParseTermProofs.
Open Scope string_scope.

Theorem C18_parse_term_terms : forall s fuel,
  (parse_fuel s <= fuel)%nat ->
  parse_term fuel s = Ok PErr \/ exists v, parse_term fuel s = Ok (POk v).
Proof. exact parse_term_total. Qed.

Theorem C18_parse_arguments_terms : forall s fuel,
  (parse_fuel s <= fuel)%nat ->
  parse_arguments fuel s = Ok PErr \/ exists v, parse_arguments fuel s = Ok (POk v).
Proof. exact parse_arguments_total. Qed.

Theorem C18_parse_linked_list_terms : forall s fuel,
  (parse_fuel s <= fuel)%nat ->
  parse_linked_list fuel s = Ok PErr \/ exists v, parse_linked_list fuel s = Ok (POk v).
Proof. exact parse_linked_list_total. Qed.

Theorem C18_parse_complex_terms : forall s fuel,
  (parse_fuel s <= fuel)%nat ->
  parse_complex fuel s = Ok PErr \/ exists v, parse_complex fuel s = Ok (POk v).
Proof. exact parse_complex_total. Qed.

Theorem C18_parse_function_terms : forall s fuel,
  (parse_fuel s <= fuel)%nat ->
  parse_function fuel s = Ok PErr \/ exists v, parse_function fuel s = Ok (POk v).
Proof. exact parse_function_total. Qed.

Theorem C18_parse_query_terms : forall s fuel,
  (parse_fuel s <= fuel)%nat ->
  parse_query fuel s = Ok PErr \/ exists v, parse_query fuel s = Ok (POk v).
Proof. exact parse_query_total. Qed.

Theorem C18_parse_subgoal_terms : forall s fuel,
  (parse_fuel s <= fuel)%nat ->
  parse_subgoal fuel s = Ok PErr \/ exists v, parse_subgoal fuel s = Ok (POk v).
Proof. exact parse_subgoal_total. Qed.

(* the infix scan used by parse_subgoal never underflows `length - 2` *)
Theorem C18_check_infix_terms : forall s, exists inf idx, check_infix s = Ok (inf, idx).
Proof. intros s. destruct (check_infix_ok s) as (inf & idx & H & _). eauto. Qed.

(* the bound is the one stated *)
Example C18_fuel_is_linear : forall s, parse_fuel s = (length s + 2)%nat.
Proof. reflexivity. Qed.

(* the inputs on which the unrepaired crate panicked: now an error / a value *)
Example C18_witness_trailing_backslash :
  parse_arguments 10 (s2l "a\") = Ok (POk [TAtom (s2l "a\")]).
Proof. vm_compute. reflexivity. Qed.
Example C18_witness_empty_query : parse_query 10 [] = Ok PErr.
Proof. vm_compute. reflexivity. Qed.
Example C18_witness_value :
  parse_subgoal 30 (s2l "not(f($X, [a, b | $T]))") =
  Ok (POk (GOp ONot [GCall (TComplex [TAtom (s2l "f"); TVar 0 (s2l "$X");
     TList (TAtom (s2l "a")) (TList (TAtom (s2l "b")) (TList (TVar 0 (s2l "$T")) empty_list 1 true) 2 false) 3 false])])).
Proof. vm_compute. reflexivity. Qed.

Check C18_parse_term_terms : forall s fuel,
  (parse_fuel s <= fuel)%nat ->
  parse_term fuel s = Ok PErr \/ exists v, parse_term fuel s = Ok (POk v).
Check C18_parse_subgoal_terms : forall s fuel,
  (parse_fuel s <= fuel)%nat ->
  parse_subgoal fuel s = Ok PErr \/ exists v, parse_subgoal fuel s = Ok (POk v).
Check C18_parse_query_terms : forall s fuel,
  (parse_fuel s <= fuel)%nat ->
  parse_query fuel s = Ok PErr \/ exists v, parse_query fuel s = Ok (POk v).

Print Assumptions C18_parse_term_terms.
Print Assumptions C18_parse_arguments_terms.
Print Assumptions C18_parse_linked_list_terms.
Print Assumptions C18_parse_complex_terms.
Print Assumptions C18_parse_function_terms.
Print Assumptions C18_parse_query_terms.
Print Assumptions C18_parse_subgoal_terms.
Print Assumptions C18_check_infix_terms.

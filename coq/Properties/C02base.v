(* C02 - Cut commits to its clause and ends the call.

   The reference search Spec/SpecCut.v says what `!` means: the search continues, and what comes
   back carries the signal Cut - the alternatives of everything up to the clause body are
   abandoned (the goals left of the cut are not retried, C02_reference_cut_signals), the call
   that chose the clause tries no later clause and ABSORBS the signal, so its caller and its
   siblings never see it (C02_reference_call_absorbs); an answer that leaves a conjunction in
   which a cut ran is the conjunction's last ("no answers beyond the one being derived").

   PROVED: the engine yields exactly the answers of that reference search, for every program
   (C02_refines = Proofs/RefineCut.refines_cut), and - directly on the machine, for all
   programs - the four clauses of the property below. *)
From Suiron Require Import Model.Term Model.Subst Model.Rename Model.Solve Spec.SpecSolve Spec.SpecCut Spec.Refine
  Proofs.SolveDead Proofs.RefineCut.

Theorem C02_refines : forall kb bf q w fs R nd w1 m F R',
  canswers kb bf fs q w = Ok R ->
  make_base_node kb (GCall q) w = Ok (nd, w1) ->
  ask_all kb bf m F nd w1 = Ok R' -> R' = R.
Proof. exact refines_cut. Qed.

(* the reference: whatever follows a cut, the search of `!` ends with a signal other than Go,
   so no alternative to its left - and no later clause - is tried *)
Theorem C02_reference_cut_signals : forall kb bf f s w k a w' g,
  csolve kb bf (S f) (GBip n_cut None) s w k = Ok (a, w', g) -> g <> Go.
Proof.
  intros kb bf f s w k a w' g H. rewrite csolve_S in H. unfold csolve_body in H.
  change (run_bip bf n_cut None s) with (Ok (mkBipResult (Some s) [] true)) in H. cbn [bind br_sol br_cut br_out] in H.
  destruct (k s (w_print w []) true) as [[[a1 w1] g1]| |]; cbn [bind mark] in H; try discriminate.
  injection H as <- <- <-. apply join0_not_go.
Qed.

(* the reference: leaving a clause body in which a cut ran ends the call (the later clauses,
   `rest`, are not consulted) and the caller sees Go: the cut is local to the call *)
Theorem C02_reference_call_absorbs : forall a w rest, after_body (a, w, Cut 0) rest = Ok (a, w, Go).
Proof. reflexivity. Qed.

(* Every node a cut passes through on its way up - the cut itself, every enclosing
   conjunction / disjunction / not / time node - is committed (no_backtracking set). *)
Theorem C02_cut_commits : forall kb bf fuel nd w nd' r w',
  next kb bf fuel nd w = Ok (nd', r, true, w') -> node_nobt nd' = true.
Proof. exact cut_commits. Qed.

(* A committed node yields nothing beyond the answer being derived when the cut ran: the
   goals to the left of the cut are never re-tried, later alternatives are never tried. *)
Theorem C02_nothing_after_the_cut : forall kb bf fuel nd w nd' r w',
  next kb bf fuel nd w = Ok (nd', r, true, w') ->
  forall m fuel2 w2 rs nd2 w3,
    ask_again kb bf fuel2 m nd' w2 = Ok (rs, nd2, w3) -> Forall (fun x => x = None) rs /\ w3 = w2.
Proof.
  intros kb bf fuel nd w nd' r w'.
  intros H m fuel2 w2 rs nd2 w3. apply dead_ask_again, dead_nobt, (cut_commits _ _ _ _ _ _ _ _ H). 
Qed.

(* The call that chose the clause: when a cut runs in the clause body, the call returns what
   the body returned (the answer being derived, or failure - no later clause is tried even
   when the goals after the cut failed) and is committed itself. *)
Theorem C02_the_call_is_committed : forall kb bf f t ss c0 idx n w c1 sol w1 nd' r c w',
  next kb bf f c0 w = Ok (c1, sol, true, w1) ->
  next kb bf (S f) (NCall t ss false (Some c0) idx n) w = Ok (nd', r, c, w') ->
  node_nobt nd' = true /\ c = false /\ r = sol.
Proof.
  (* one step of the call node's run is unfolded: the first hypothesis names the result of the child's
     run, and it is the function `next` that makes this the run the call node sees *)
  intros kb bf f t ss c0 idx n w c1 sol w1 nd' r c w' Hc H.
  rewrite next_S in H. unfold next_body in H. simpl in H. rewrite Hc in H. simpl in H.
  destruct sol as [s|].
  - inversion H; subst. auto.
  - destruct f as [|f']; [discriminate|]. rewrite call_loop_S in H. unfold call_body in H. simpl in H.
    inversion H; subst. auto.
Qed.

(* A cut never affects the caller of that call or any sibling: a call reports no cut. *)
Theorem C02_cut_is_local : forall kb bf fuel t ss nobt child idx n w nd' r c w',
  next kb bf fuel (NCall t ss nobt child idx n) w = Ok (nd', r, c, w') -> c = false.
Proof. exact call_absorbs_cut. Qed.

(* non-vacuity: a(1) :- b(0), !, fail.  a(2).  b(0).  |- a($X) has no answer
   (the defect repaired by commit 782f5c0 answered a(2)) *)
Definition C02_demo : bool :=
  let kb := [([97; 47; 49]%N, [mkRule (TComplex [TAtom [97%N]; TInt 1])
                                 (GOp OAnd [GCall (TComplex [TAtom [98%N]; TInt 0]); GBip n_cut None; GBip n_fail None]);
                               mkRule (TComplex [TAtom [97%N]; TInt 2]) GNil]);
             ([98; 47; 49]%N, [mkRule (TComplex [TAtom [98%N]; TInt 0]) GNil])] in
  match make_base_node kb (GCall (TComplex [TAtom [97%N]; TVar 1 [36; 88]%N])) (mkWorld 1 false None []) with
  | Ok (nd, w) => match next kb 30 30 nd w with Ok (nd1, None, false, _) => node_nobt nd1 | _ => false end
  | _ => false
  end.
Example C02_witness : C02_demo = true.
Proof. vm_compute. reflexivity. Qed.

Check C02_cut_commits : forall kb bf fuel nd w nd' r w',
  next kb bf fuel nd w = Ok (nd', r, true, w') -> node_nobt nd' = true.

Print Assumptions C02_refines.
Print Assumptions C02_reference_cut_signals.
Print Assumptions C02_reference_call_absorbs.
Print Assumptions C02_cut_commits.
Print Assumptions C02_nothing_after_the_cut.
Print Assumptions C02_the_call_is_committed.
Print Assumptions C02_cut_is_local.

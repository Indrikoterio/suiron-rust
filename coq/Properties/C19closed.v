(* C19, closed: with the REAL leaf parsers parse_subgoal and parse_complex (no hypothesis about
   a leaf parser), every closed rule prints as its canonical text and that text parses back to
   the rule; the same for closed goals with generate_goal.

   THE CLASSES
   canonical terms (Proofs/TermRoundtripMain.v `canonical`, executable test `canonicalb`):
     atoms            [A-Za-z0-9_] at both ends, [A-Za-z0-9_ ] between, not all digits (`wide_atom`)
     integers         64-bit
     variables        $[A-Za-z][A-Za-z0-9_]* with id 0; the anonymous variable $_
     complex terms    f(t1, ..., tn), n >= 0, f `[a-z][A-Za-z0-9_]*` other than join, add, subtract,
                      multiply, divide; text of at most 1000 characters
     lists            [t1, ..., tn] (n >= 0), [t1, ..., tn | $V] and [t1, ..., tn | $_] (n >= 1), in
                      the well-formed node shape (`elems` of Spec/SpecLists.v)
   closed leaf goals (Proofs/GoalLeafParse.v `closed_leaf`, test `closed_leafb`), arguments
   canonical terms:
     f(t1, ..., tn)   n >= 1, f `[a-z][A-Za-z0-9_]*`, not fail, nl, not, time, nor a built-in
                      predicate name (`goal_functor`); add, join, ... are ordinary functors here
     f()              f `[a-z][A-Za-z0-9_]*`, not fail, nl, not, time (`goal_functor0`; a built-in
                      predicate name is an ordinary functor when there are no arguments)
     name(t1, ..., tn)  n >= 1, name one of print, append, functor, include, exclude, print_list,
                      equal, less_than, less_than_or_equal, greater_than, greater_than_or_equal,
                      count (Display prints these in functional notation)
     l = r            unify, exactly two operands (the only infix form Display prints)
     !   fail   nl
     not(leaf)  time(leaf)   leaf any of the above except `l = r`; nesting allowed
   closed goals (Proofs/RuleRoundtripClosed.v `closed_goal`, test `closed_goalb`): leaves, and
     And / Or of at least two closed goals, any nesting.
   closed rules (`closed_rule`, test `closed_ruleb`): head f(t1, ..., tn) or f() as the call
     leaves above, text of at most 1000 characters; body none (a fact) or a closed goal.
   The fuel of the leaf parsers is any F >= length of the text + 2 - the instantiation of C18.

   EVERY DISAGREEMENT BETWEEN DISPLAY AND THE PARSERS KNOWN TO THIS DEVELOPMENT
   (value -> text printed -> what the parser makes of the text; the compiled Example)
   terms:
     T1  TVar 0 "$_" -> `$_` -> the anonymous variable           var_underscore_not_canonical  (Proofs/TermRoundtrip.v)
     T2  TVar 0 "$1" -> `$1` -> the atom `$1`                     var_digit_not_canonical       (Proofs/TermRoundtrip.v)
     T3  TVar 3 "$X" -> `$X_3` -> TVar 0 "$X_3"                   var_id_not_read_back          (this file)
     T4  TAtom "123" -> `123` -> the integer 123                  digits_atom_not_read_back     (Proofs/TermRoundtrip.v)
     T5  TNil -> `Nil` -> the atom Nil                            nil_not_read_back             (this file)
     T6  TComplex [] -> `)` -> the atom `)`                       empty_complex_not_read_back   (this file)
     T7  f(...) longer than 1000 characters -> error              complex_1001_not_read_back    (Proofs/TermRoundtripComplex.v; complex_1000_ok)
     T8  TComplex [add; ...] (also join, subtract, multiply, divide) -> `add(..)` -> the function TFun add
                                                                  reserved_functor_not_read_back (Proofs/TermRoundtripComplex.v)
     T9  TFun "foo" [1] -> `foo(1)` -> the complex term foo(1)    other_function_not_read_back  (this file)
     T10 list made of a tail variable only -> `[$T]` -> one-element list   list_only_tail_not_read_back (Proofs/TermRoundtripMain.v)
     (repaired: `[a | $_]`, list_anon_tail_reads_back in Proofs/TermRoundtripMain.v)
   goals and rules:
     G1  not(f(a) = 1): the infix scan skips from the first `(` to the first `)` only -> error
                                                                  not_unify_not_read_back
     G2  unify with three operands prints the first two           unify_three_not_read_back
     G3  unify with one operand: Display panics                   unify_one_panics
     G4  GBip print (Some []) -> `print()` -> the call print()    empty_bip_not_read_back
     G5  GBip print None -> `print` -> the call print()           bip_none_not_read_back
     G6  calls named fail / nl (any arity) read as the built-in fail / nl; calls named as a built-in
         predicate with arguments read as that predicate; time() and not() are errors
                                                                  reserved_goal_functors, reserved_goal_functors0
     G7  And / Or of one operand prints as the operand; of none as the empty text; GNil as `Nil`
                                                                  single_operand_not_read_back
     (repaired: a goal without arguments `go()`, zero_arity_goal_reads_back, zero_arity_rule_reads_back)
   files:
     F1  a line break after the sign of a negative number is a legal layout for the file reader, which
         puts a space there: `p(-` / `5).` loads as p(- 5) with the atom `- 5`
                                                                  break_after_minus_sign_changes_the_rule (Properties/C21.v)
     F2  floats: Display prints the shortest decimal that reads back as the same f64, without an
         exponent.  A float reads back as a float only when that decimal contains a period: 0.5, 0.1,
         -2.5, 123456789.12345679 do.  An integer-valued float does not (3.0 prints `3`, -0.0 prints
         `-0`, 1e23 prints `100000000000000000000000`: the text reads as an integer - or, beyond the
         64-bit range, as an error), nor do the infinities and NaN (`inf`, `-inf`, `NaN` read as atoms)
                                                                  integer_valued_float_not_read_back,
                                                                  fractional_float_reads_back, inf_nan_not_read_back
   Not examined by a theorem: floats with a fractional part (they round-trip in every case computed,
   no proof), quoted atoms, atoms and functors with other characters. *)
From Coq Require Import String.
From Suiron Require Import Model.Tokenizer Model.ParseRule Proofs.TokenizerProofs Proofs.GoalRoundtrip.
From Suiron Require Import Model.ParseTerm Model.ParseGoal Model.Show Model.ShowGoal.
From Suiron Require Import Proofs.TermRoundtrip Proofs.TermRoundtripComplex Proofs.TermRoundtripMain
  Proofs.TermRoundtripCheck Proofs.GoalLeafParse Proofs.RuleRoundtripClosed Proofs.RuleRoundtripCheck.
Open Scope N_scope.
Open Scope string_scope.

Theorem C19_closed_rules : forall r F fuel,
  closed_rule r -> (length (rule_text r) + 2 <= F)%nat -> (2 * length (rule_text r) + 3 <= fuel)%nat ->
  show_rule r = Ok (rule_text r) /\
  parse_rule (parse_subgoal F) (parse_complex F) fuel (rule_text r) = Ok (POk r).
Proof. exact roundtrip_rule_closed. Qed.

Theorem C19_closed_goals : forall g F fuel,
  closed_goal g -> (length (text g) + 2 <= F)%nat -> (2 * length (text g) + 3 <= fuel)%nat ->
  show_goal g = Ok (text g) /\ generate_goal (parse_subgoal F) fuel (text g) = Ok (POk g).
Proof. exact roundtrip_goal_closed. Qed.

(* the hypothesis `leaf_ok` of C19_roundtrip_goals holds of every closed leaf *)
Theorem C19_closed_leaves : forall l F,
  closed_leaf l -> (length (leaf_text l) + 2 <= F)%nat -> leaf_ok (parse_subgoal F) l.
Proof. exact closed_leaf_ok. Qed.

(* in the instantiation of C18: the leaf parsers get length + 2 *)
Corollary C19_closed_rules_C18_fuel : forall r,
  closed_rule r ->
  let s := rule_text r in
  show_rule r = Ok s /\
  parse_rule (parse_subgoal (length s + 2)) (parse_complex (length s + 2)) (2 * length s + 3) s =
  Ok (POk r).
Proof. intros r H s. apply C19_closed_rules; [exact H| |]; apply le_n. Qed.

(* an executable test that implies the class *)
Theorem C19_closed_rules_checked : forall r,
  closed_ruleb r = true ->
  let s := rule_text r in
  show_rule r = Ok s /\
  parse_rule (parse_subgoal (length s + 2)) (parse_complex (length s + 2)) (2 * length s + 3) s =
  Ok (POk r).
Proof. intros r H s. apply roundtrip_rule_closed; [now apply closed_ruleb_sound| |]; apply le_n. Qed.

(* ---- non-vacuity: h($X, [a | $_]) :- (a(1); $X = 1, !), not(b($X)), print($X, hello). ---- *)
Section Witness.
  Let X := TVar 0 (s2l "$X").
  Let a1 := GCall (TComplex [TAtom (s2l "a"); TInt 1]).
  Let u := GBip (s2l "unify") (Some [X; TInt 1]).
  Let cut := GBip (s2l "!") None.
  Let nb := GOp ONot [GCall (TComplex [TAtom (s2l "b"); X])].
  Let pr := GBip (s2l "print") (Some [X; TAtom (s2l "hello")]).
  Let h := TComplex [TAtom (s2l "h"); X; make_linked_list true [TAtom (s2l "a"); TAnon]].
  Let body := GOp OAnd [GOp OOr [a1; GOp OAnd [u; cut]]; nb; pr].

  Ltac can := apply canonicalb_sound; vm_compute; reflexivity.
  Ltac cans := let t := fresh in let H := fresh in
               intros t H; cbn [In] in H;
               repeat (destruct H as [<-|H]; [can|]); contradiction.

  Lemma w_a1 : closed_leaf a1.
  Proof. apply cl_call; [reflexivity|discriminate|cans]. Qed.
  Lemma w_u : closed_leaf u.
  Proof. apply (cl_unify X (TInt 1)); can. Qed.
  Lemma w_nb : closed_leaf nb.
  Proof. apply cl_not; [|reflexivity]. apply cl_call; [reflexivity|discriminate|cans]. Qed.
  Lemma w_pr : closed_leaf pr.
  Proof. apply cl_bip; [reflexivity|discriminate|cans]. Qed.

  Lemma w_body : closed_goal body.
  Proof.
    apply cg_and; [cbn; repeat constructor|]. intros g Hg. cbn [In] in Hg.
    destruct Hg as [<-|[<-|[<-|[]]]].
    - apply cg_or; [cbn; repeat constructor|]. intros g Hg. cbn [In] in Hg.
      destruct Hg as [<-|[<-|[]]].
      + apply cg_leaf, w_a1.
      + apply cg_and; [cbn; repeat constructor|]. intros g Hg. cbn [In] in Hg.
        destruct Hg as [<-|[<-|[]]]; apply cg_leaf; [apply w_u|apply cl_cut].
    - apply cg_leaf, w_nb.
    - apply cg_leaf, w_pr.
  Qed.

  Lemma w_rule : closed_rule (mkRule h body).
  Proof.
    split; [|right; exact w_body]. cbn [r_head].
    apply (ch_intro (s2l "h")); [reflexivity|discriminate|cans|apply Nat.leb_le; reflexivity].
  Qed.

  Example C19_closed_witness :
    let s := s2l "h($X, [a | $_]) :- (a(1); $X = 1, !), not(b($X)), print($X, hello)." in
    show_rule (mkRule h body) = Ok s /\
    parse_rule (parse_subgoal (length s + 2)) (parse_complex (length s + 2)) (2 * length s + 3) s =
    Ok (POk (mkRule h body)).
  Proof. exact (C19_closed_rules_C18_fuel _ w_rule). Qed.

  (* the same rule passes the executable test; so does one with wider atoms *)
  Example C19_closed_witness_checked :
    closed_ruleb (mkRule h body) = true /\
    closed_ruleb (mkRule (TComplex [TAtom (s2l "city"); TAtom (s2l "New York"); TVar 0 (s2l "$P")])
                         (GOp OOr [GBip (s2l "less_than") (Some [TVar 0 (s2l "$P"); TInt (-5)]);
                                   GOp OTime [GCall (TComplex [TAtom (s2l "lookup"); TAtom (s2l "Nil"); TAnon])]]))
    = true.
  Proof. vm_compute. split; reflexivity. Qed.
End Witness.

(* ---- arity 0 (after the repair of parse_subgoal: `go()` is a goal) ---- *)
Example zero_arity_goal_reads_back :
  let g := GCall (TComplex [TAtom (s2l "go")]) in
  parse_subgoal 20 (s2l "go") = Ok (POk g) /\
  show_goal g = Ok (s2l "go()") /\
  parse_subgoal 20 (s2l "go()") = Ok (POk g).
Proof. vm_compute. repeat split; reflexivity. Qed.

(* `p :- go, a(1).` parses, prints `p() :- go(), a(1).`, and that text parses back to the rule *)
Example zero_arity_rule_reads_back :
  let r := mkRule (TComplex [TAtom (s2l "p")])
                  (GOp OAnd [GCall (TComplex [TAtom (s2l "go")]);
                             GCall (TComplex [TAtom (s2l "a"); TInt 1])]) in
  parse_rule (parse_subgoal 30) (parse_complex 30) 100 (s2l "p :- go, a(1).") = Ok (POk r) /\
  show_rule r = Ok (s2l "p() :- go(), a(1).") /\
  parse_rule (parse_subgoal 30) (parse_complex 30) 100 (s2l "p() :- go(), a(1).") = Ok (POk r) /\
  closed_ruleb r = true /\
  closed_ruleb (mkRule (TComplex [TAtom (s2l "go")]) GNil) = true.
Proof. vm_compute. repeat split; reflexivity. Qed.

(* ---- where Display and the parsers disagree (outside the classes); the list is in the header ---- *)
(* T3, T5, T6, T9 *)
Example var_id_not_read_back :
  show_term (TVar 3 (s2l "$X")) = s2l "$X_3" /\
  parse_term 20 (s2l "$X_3") = Ok (POk (TVar 0 (s2l "$X_3"))).
Proof. vm_compute. split; reflexivity. Qed.
Example nil_not_read_back : parse_term 20 (show_term TNil) = Ok (POk (TAtom (s2l "Nil"))).
Proof. vm_compute. reflexivity. Qed.
Example empty_complex_not_read_back :
  show_term (TComplex []) = s2l ")" /\ parse_term 20 (s2l ")") = Ok (POk (TAtom (s2l ")"))).
Proof. vm_compute. split; reflexivity. Qed.
Example other_function_not_read_back :
  parse_term 20 (show_term (TFun (s2l "foo") [TInt 1])) =
  Ok (POk (TComplex [TAtom (s2l "foo"); TInt 1])).
Proof. vm_compute. reflexivity. Qed.

(* F2: s reads as a float which prints as t / which reads back *)
Definition float_prints_as (s t : str) : bool :=
  match parse_term 5 s with
  | Ok (POk (TFloat f)) => str_eqb (show_term (TFloat f)) t
  | _ => false
  end.
Definition float_reads_back (s : str) : bool :=
  match parse_term 5 s with
  | Ok (POk (TFloat f)) =>
      match parse_term 5 (show_term (TFloat f)) with
      | Ok (POk t) => term_eqb t (TFloat f)
      | _ => false
      end
  | _ => false
  end.

(* once s is known to print as t, reading back needs no second printing (the printer's search
   for the shortest decimal is the dear part) *)
Lemma float_reads_back_text s t : float_prints_as s t = true ->
  float_reads_back s =
  match parse_term 5 s, parse_term 5 t with
  | Ok (POk a), Ok (POk b) => term_eqb b a
  | _, _ => false
  end.
Proof.
  unfold float_prints_as, float_reads_back.
  destruct (parse_term 5 s) as [[[]|]| |]; try discriminate.
  intros H. apply str_eqb_eq in H. now rewrite H.
Qed.

Example integer_valued_float_not_read_back :
  float_prints_as (s2l "3.0") (s2l "3") = true /\
  parse_term 5 (s2l "3") = Ok (POk (TInt 3)) /\
  float_prints_as (s2l "-0.0") (s2l "-0") = true /\
  parse_term 5 (s2l "-0") = Ok (POk (TInt 0)) /\
  float_prints_as (s2l "100000000000000000000000.") (s2l "100000000000000000000000") = true /\
  parse_term 5 (s2l "100000000000000000000000") = Ok PErr /\
  map float_reads_back [s2l "3.0"; s2l "-0.0"; s2l "100000000000000000000000."; s2l "1000000.0"] =
  [false; false; false; false].
Proof.
  assert (P : float_prints_as (s2l "3.0") (s2l "3") = true) by (vm_compute; reflexivity).
  assert (Q : float_prints_as (s2l "-0.0") (s2l "-0") = true) by (vm_compute; reflexivity).
  assert (R : float_prints_as (s2l "100000000000000000000000.") (s2l "100000000000000000000000") = true)
    by (vm_compute; reflexivity).
  refine (conj P (conj _ (conj Q (conj _ (conj R (conj _ _)))))).
  1-3: vm_compute; reflexivity.
  cbn [map]. rewrite (float_reads_back_text _ _ P), (float_reads_back_text _ _ Q),
    (float_reads_back_text _ _ R).
  vm_compute. reflexivity.
Qed.

Example fractional_float_reads_back :
  map float_reads_back
    [s2l "0.5"; s2l "0.1"; s2l "-2.50"; s2l "123456789.123456789"; s2l "0.000001"] =
  [true; true; true; true; true] /\
  float_prints_as (s2l "123456789.123456789") (s2l "123456789.12345679") = true /\
  float_prints_as (s2l "0.1") (s2l "0.1") = true.
Proof.
  assert (P : float_prints_as (s2l "123456789.123456789") (s2l "123456789.12345679") = true)
    by (vm_compute; reflexivity).
  assert (Q : float_prints_as (s2l "0.1") (s2l "0.1") = true) by (vm_compute; reflexivity).
  split; [|split; [exact P|exact Q]].
  cbn [map]. rewrite (float_reads_back_text _ _ P), (float_reads_back_text _ _ Q).
  vm_compute. reflexivity.
Qed.

Example inf_nan_not_read_back :
  parse_term 5 (show_term (TFloat (Float.f64_inf false))) = Ok (POk (TAtom (s2l "inf"))) /\
  parse_term 5 (show_term (TFloat (Float.f64_inf true))) = Ok (POk (TAtom (s2l "-inf"))) /\
  parse_term 5 (show_term (TFloat Float.f64_nan)) = Ok (POk (TAtom (s2l "NaN"))).
Proof. vm_compute. repeat split; reflexivity. Qed.

(* G1: not(l = r) with a parenthesis in l: the infix scan skips from the first `(` to the first
   `)` only, finds the ` = ` and splits the text there *)
Example not_unify_not_read_back :
  let g := GOp ONot [GBip (s2l "unify") (Some [TComplex [TAtom (s2l "f"); TAtom (s2l "a")]; TInt 1])] in
  show_goal g = Ok (s2l "not(f(a) = 1)") /\
  parse_subgoal 30 (s2l "not(f(a) = 1)") = Ok PErr /\
  parse_subgoal 30 (s2l "not($X = 1)") =
    Ok (POk (GOp ONot [GBip (s2l "unify") (Some [TVar 0 (s2l "$X"); TInt 1])])).
Proof. vm_compute. repeat split; reflexivity. Qed.

(* G2, G3 *)
Example unify_three_not_read_back :
  show_goal (GBip (s2l "unify") (Some [TAtom (s2l "a"); TAtom (s2l "b"); TAtom (s2l "c")])) =
  Ok (s2l "a = b").
Proof. vm_compute. reflexivity. Qed.
Example unify_one_panics : show_goal (GBip (s2l "unify") (Some [TAtom (s2l "a")])) = Panic.
Proof. vm_compute. reflexivity. Qed.

(* G4, G5 *)
Example empty_bip_not_read_back :
  show_goal (GBip (s2l "print") (Some [])) = Ok (s2l "print()") /\
  parse_subgoal 20 (s2l "print()") = Ok (POk (GCall (TComplex [TAtom (s2l "print")]))).
Proof. vm_compute. split; reflexivity. Qed.
Example bip_none_not_read_back :
  show_goal (GBip (s2l "print") None) = Ok (s2l "print") /\
  parse_subgoal 20 (s2l "print") = Ok (POk (GCall (TComplex [TAtom (s2l "print")]))).
Proof. vm_compute. split; reflexivity. Qed.

(* G6 *)
Example reserved_goal_functors :
  parse_subgoal 20 (s2l "fail(a)") = Ok (POk (GBip (s2l "fail") None)) /\
  parse_subgoal 20 (s2l "count(a)") = Ok (POk (GBip (s2l "count") (Some [TAtom (s2l "a")]))) /\
  parse_subgoal 20 (s2l "add(1, 2)") =
    Ok (POk (GCall (TComplex [TAtom (s2l "add"); TInt 1; TInt 2]))).
Proof. vm_compute. repeat split; reflexivity. Qed.
Example reserved_goal_functors0 :
  parse_subgoal 20 (s2l "fail()") = Ok (POk (GBip (s2l "fail") None)) /\
  parse_subgoal 20 (s2l "nl()") = Ok (POk (GBip (s2l "nl") None)) /\
  parse_subgoal 20 (s2l "!()") = Ok (POk (GBip (s2l "!") None)) /\
  parse_subgoal 20 (s2l "time()") = Ok PErr /\ parse_subgoal 20 (s2l "not()") = Ok PErr /\
  parse_subgoal 20 (s2l "count()") = Ok (POk (GCall (TComplex [TAtom (s2l "count")]))).
Proof. vm_compute. repeat split; reflexivity. Qed.

(* G7 *)
Example single_operand_not_read_back :
  show_goal (GOp OAnd [GCall (TComplex [TAtom (s2l "a"); TInt 1])]) = Ok (s2l "a(1)") /\
  show_goal (GOp OAnd []) = Ok [] /\
  show_goal GNil = Ok (s2l "Nil") /\
  parse_subgoal 20 (s2l "Nil") = Ok (POk (GCall (TComplex [TAtom (s2l "Nil")]))).
Proof. vm_compute. repeat split; reflexivity. Qed.

Check C19_closed_rules : forall r F fuel,
  closed_rule r -> (length (rule_text r) + 2 <= F)%nat -> (2 * length (rule_text r) + 3 <= fuel)%nat ->
  show_rule r = Ok (rule_text r) /\
  parse_rule (parse_subgoal F) (parse_complex F) fuel (rule_text r) = Ok (POk r).

Print Assumptions C19_closed_rules.
Print Assumptions C19_closed_goals.
Print Assumptions C19_closed_leaves.
Print Assumptions C19_closed_rules_checked.

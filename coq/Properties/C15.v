(* C15 - Engine-built lists hold exactly their elements. *)
From Suiron Require Import Model.Term Model.Subst Model.Lists Model.Builtins
  Spec.SpecLists Proofs.ListProofs.
Open Scope N_scope.

(* `elems l = Some (xs, tl)` (Spec/SpecLists.v) says: l is a well-formed node chain whose
   elements are exactly xs, in order, with tail variable tl (if any); every node's recorded
   count is the number of nodes from there on.  A list-valued or empty-list element is one
   element of xs like any other. *)

(* The builder behind append, include and exclude: exactly the given terms, for every
   sequence of terms (lists, empty lists, variables, `$_`, ... included). *)
Theorem C15_list_of_terms_exact : forall xs, non_nil xs ->
  elems (make_list_of_terms xs) = Some (xs, None) /\
  node_count (make_list_of_terms xs) = N.of_nat (length xs).
Proof. exact make_list_of_terms_spec. Qed.

(* Linking a term in front of a list (the parser's builder). *)
Theorem C15_link_front : forall x l xs tl,
  is_nil x = false -> elems l = Some (xs, tl) ->
  exists l', link_front x false l = Ok l' /\ elems l' = Some (x :: xs, tl).
Proof.
  intros x l xs tl.
  intros Hx He. destruct l as [| | | | | | |a n c tv|]; try discriminate.
  eexists; split; [reflexivity|]. apply elems_cons; auto.
Qed.

(* The recorded length is the number of nodes. *)
Theorem C15_count : forall l xs tl, elems l = Some (xs, tl) ->
  node_count l = N.of_nat (length xs) + match tl with Some _ => 1 | None => 0 end.
Proof. exact elems_count. Qed.

(* The documented constructor make_linked_list(vbar, terms): *)
Theorem C15_constructor_empty : forall vbar, make_linked_list vbar [] = empty_list.
Proof.
  intros vbar.
  reflexivity. 
Qed.

Theorem C15_constructor_single : forall vbar x, is_nil x = false ->
  elems (make_linked_list vbar [x]) = if vbar then Some ([], Some x) else Some ([x], None).
Proof. exact mll_single. Qed.

(* ... the given elements, the last one as the tail variable when vbar is set ... *)
Theorem C15_constructor_plain : forall vbar xs last,
  xs <> [] -> non_nil xs -> is_list last = false -> is_nil last = false ->
  elems (make_linked_list vbar (xs ++ [last])) =
  if vbar then Some (xs, Some last) else Some (xs ++ [last], None).
Proof. exact mll_plain. Qed.

(* ... and a trailing list spliced in as the rest of the list, as in [a | [b, c]]. *)
Theorem C15_constructor_splice : forall vbar xs last ys tl,
  xs <> [] -> non_nil xs -> is_list last = true -> elems last = Some (ys, tl) ->
  elems (make_linked_list vbar (xs ++ [last])) = Some (xs ++ ys, tl).
Proof.
  intros vbar xs last ys tl Hne Hn Hl He. apply mll_elems; auto; [destruct last; auto; discriminate|].
  now rewrite (last_node_list _ _ _ _ He).
Qed.

(* non-vacuity: [a, [b], []] built by make_list_of_terms keeps the nested and the empty
   list as single elements; make_linked_list splices a trailing [b, c]. *)
Example C15_witness :
  let a := TAtom [97] in let b := TAtom [98] in let c := TAtom [99] in
  elems (make_list_of_terms [a; make_list_of_terms [b]; empty_list])
    = Some ([a; make_list_of_terms [b]; empty_list], None) /\
  elems (make_linked_list false [a; make_list_of_terms [b; c]]) = Some ([a; b; c], None) /\
  elems (make_linked_list true [a; b; TVar 1 [36; 84]]) = Some ([a; b], Some (TVar 1 [36; 84])).
Proof. vm_compute. repeat split. Qed.

Check C15_list_of_terms_exact : forall xs, non_nil xs ->
  elems (make_list_of_terms xs) = Some (xs, None) /\
  node_count (make_list_of_terms xs) = N.of_nat (length xs).

Print Assumptions C15_list_of_terms_exact.
Print Assumptions C15_link_front.
Print Assumptions C15_count.
Print Assumptions C15_constructor_empty.
Print Assumptions C15_constructor_single.
Print Assumptions C15_constructor_plain.
Print Assumptions C15_constructor_splice.

(* C23 - solve/solve_all report real answers or a timeout, never wrong ones.

   PARTIAL with respect to the runtime: the timer THREAD (OS scheduling, thread_timer's
   cancel()) is not modelled.  What is modelled is every behaviour of a timer that raises the
   flag at some read: the stop flag with an arbitrary schedule `stop_after` (never, or at
   the n-th read for any n), and what the two drivers do with it. *)
From Suiron Require Import Model.Term Model.Subst Model.Rename Model.Solve Spec.SpecCut Proofs.SolveTimeout Proofs.SolveQuiet Model.Timer Proofs.TimerProofs.

(* solve: one request, then one read of the flag.  It reports the timeout message when that
   read is true, otherwise "No more." when the request found no answer, otherwise the text
   of the answer the request returned. *)
Theorem C23_solve : forall kb fuel nd w nd' txt w',
  solve fuel kb nd w = Ok (nd', txt, w') ->
  exists sol c w1,
    next kb fuel fuel nd (w_set_flag w false) = Ok (nd', sol, c, w1) /\
    w' = snd (query_stopped w1) /\
    if fst (query_stopped w1) then txt = timeout_msg
    else match sol with
         | None => txt = no_more
         | Some s => exists q, node_goal_term nd' = Some q /\ answer_text fuel q s = Ok txt
         end.
Proof. exact solve_reports. Qed.

(* solve_all: the texts of a `Run` (Proofs/SolveTimeout.v) - every reported text is an answer
   that next_solution returned and AFTER which the flag still read false; an answer returned
   by a request during which the flag was raised is dropped -, complete when the Run ended
   with a request without answer (b = false), and followed by the timeout message exactly
   when the final read of the flag is true, which is always the case after a stopped Run. *)
Theorem C23_solve_all : forall kb fuel nd w nd' l w',
  solve_all fuel kb nd w = Ok (nd', l, w') ->
  exists q l0 b w1,
    node_goal_term nd = Some q /\
    Run kb q fuel nd (w_set_flag w false) l0 nd' w1 b /\
    l = l0 ++ (if fst (query_stopped w1) then [timeout_msg] else []) /\
    (b = true -> fst (query_stopped w1) = true).
Proof.
  intros kb fuel nd w nd' l w'.
  intro H. destruct (solve_all_runs _ _ _ _ _ _ _ H) as (q & l0 & b & w1 & Hg & Hr & Hl & _).
  exists q, l0, b, w1. repeat split; auto. intros ->. exact (run_stopped_flag _ _ _ _ _ _ _ _ Hr).
Qed.

(* once raised, the flag stays raised until the next query is started *)
Theorem C23_flag_stays : forall w,
  fst (query_stopped w) = true -> fst (query_stopped (snd (query_stopped w))) = true.
Proof. exact stopped_stays. Qed.

(* non-vacuity: n(1). n(2). n(3). |- n($X) with the flag raised at the 3rd read: two answers
   and the message; never raised: three answers, no message *)
Definition C23_demo : bool :=
  let f i := mkRule (TComplex [TAtom [110%N]; TInt i]) GNil in
  let kb := [([110; 47; 49]%N, [f 1%Z; f 2%Z; f 3%Z])] in
  let q := GCall (TComplex [TAtom [110%N]; TVar 1 [36; 88]%N]) in
  match make_base_node kb q (mkWorld 1 false None []) with
  | Ok (nd, w) =>
      match solve_all 30 kb nd (mkWorld 1 false (Some 2%N) []), solve_all 30 kb nd w with
      | Ok (_, [a; b; m], _), Ok (_, [a'; b'; c'], _) => true
      | _, _ => false
      end
  | _ => false
  end.
Example C23_witness : C23_demo = true.
Proof. vm_compute. reflexivity. Qed.

Check C23_solve_all : forall kb fuel nd w nd' l w',
  solve_all fuel kb nd w = Ok (nd', l, w') ->
  exists q l0 b w1,
    node_goal_term nd = Some q /\
    Run kb q fuel nd (w_set_flag w false) l0 nd' w1 b /\
    l = l0 ++ (if fst (query_stopped w1) then [timeout_msg] else []) /\
    (b = true -> fst (query_stopped w1) = true).

(* When no stop is pending (flag clear, no hook schedule), the search never raises the flag:
   solve_all reports no timeout, and its list is complete - exactly the answers of the reference
   search (Spec/SpecCut.v), each formatted, in order; the world afterwards is the reference's. *)
Theorem C23_no_stop_pending : forall kb fuel q w fs R nd w1 nd' l w',
  quiet w ->
  canswers kb fuel fs q w = Ok R ->
  make_base_node kb (GCall q) w = Ok (nd, w1) ->
  solve_all fuel kb nd w1 = Ok (nd', l, w') ->
  Forall2 (fun s txt => exists f, answer_text f q s = Ok txt) (fst R) l /\ w' = snd R.
Proof. exact solve_all_refines. Qed.

(* the search itself never raises the flag *)
Theorem C23_search_never_stops_itself : forall kb bf F nd w nd' r c w1,
  quiet w -> next kb bf F nd w = Ok (nd', r, c, w1) -> quiet w1.
Proof. exact quiet_next. Qed.

(* ---- the timer protocol of time_out.rs (Model/Timer.v): every operation is one atomic step on
        the word QUERY_STATE, so the interleavings of the main thread with the timer threads are the
        sequences of steps; for EVERY such sequence ---- *)

(* the flag goes up only through stop_query() or the time-out of the current query's own timer
   while that query is still running ... *)
Theorem C23_flag_raised_only_by : forall ops o,
  flag (trun ops) = false -> flag (tstep (trun ops) o) = true ->
  o = TStop \/ exists k, o = TFire k /\ nth_error (started (trun ops)) k = Some (cur (trun ops)) /\
                         tstat (cur (trun ops)) = Running.
Proof. intros ops o. apply flag_raised_only_by, tinv_reachable. Qed.

(* ... a timer of an earlier query is ignored whenever it fires, and so is any timer once
   cancel_timer() has run or the query is stopped (ThreadTimer::cancel() may fail: harmless) ... *)
Theorem C23_stale_timer_is_ignored : forall s k m,
  nth_error (started s) k = Some m -> (tgen m < tgen (cur s))%N -> tstep s (TFire k) = s.
Proof. exact stale_timer_is_ignored. Qed.
Theorem C23_cancelled_timer_is_ignored : forall ops k,
  tstat (cur (trun ops)) <> Running -> tstep (trun ops) (TFire k) = trun ops.
Proof. intros ops k. apply cancelled_timer_is_ignored, tinv_reachable. Qed.

(* ... the flag stays up until the next query starts, and the current query's own timer does stop it *)
Theorem C23_flag_stays_until_next_query : forall s o, flag s = true -> o <> TStart -> o <> TStartQuery -> flag (tstep s o) = true.
Proof. exact flag_stays. Qed.
Theorem C23_own_timer_stops : forall s k, nth_error (started s) k = Some (cur s) -> flag (tstep s (TFire k)) = true.
Proof.
  intros s k.
  intro E. destruct (tstep_fire s k) as [[_ ->]|[N _]]; [reflexivity|contradiction]. 
Qed.

(* the protocol before commit ba4370f (generation counter, separate flag, time-out in two steps) did
   not have this property: a concrete schedule stops the NEXT query *)
Theorem C23_old_protocol_refuted :
  oflag (fold_left ostep [OStart; OFireCheck 0; OCancel; OStart; OFireStore 0] oinit) = true.
Proof. exact old_protocol_refuted. Qed.

Print Assumptions C23_flag_raised_only_by.
Print Assumptions C23_stale_timer_is_ignored.
Print Assumptions C23_cancelled_timer_is_ignored.
Print Assumptions C23_flag_stays_until_next_query.
Print Assumptions C23_own_timer_stops.
Print Assumptions C23_old_protocol_refuted.
Print Assumptions C23_no_stop_pending.
Print Assumptions C23_search_never_stops_itself.
Print Assumptions C23_solve.
Print Assumptions C23_solve_all.
Print Assumptions C23_flag_stays.

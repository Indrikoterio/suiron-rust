(* C04, law of the reference search (Spec/SpecCut.v) for output, for cut-free programs, stated with the
   direct-style stream interpreter `sld` of Proofs/SldOrder.v (which the reference equals at every fuel:
   Properties/C01laws.v): a built-in predicate standing after a goal g1 - print, print_list, nl, ... - is
   executed once for EACH answer of g1, in the order in which g1 delivers them, and its text is appended
   to the output at that moment, before g1 is resumed (`seach` resumes the stream in the world the
   execution left).  Hence: once per execution, in search order, and again on every retry. *)
From Suiron Require Import Model.Term Model.Subst Model.Solve Model.Builtins Model.Rename Spec.SpecCut
  Proofs.CutOnce Proofs.SldOrder.
Open Scope N_scope.

Theorem C04_output_once_per_answer : forall kb bf, cutfree_kb kb = true ->
  forall f g1 fn ts s w, cutfree g1 = true -> str_eqb fn n_cut = false ->
  answers kb bf (S (S (S f))) (GOp OAnd [g1; GBip fn ts]) s w =
  seach (sld kb bf (S (S f)) g1 s w)
        (fun s1 w1 => do r <- run_bip bf fn ts s1;
                      Ok (match br_sol r with Some s' => [s'] | None => [] end, w_print w1 (br_out r))).
Proof.
  intros kb bf Hkb f g1 fn ts s w Hg Hn.
  rewrite (sld_conjunction kb bf Hkb (S (S f)) g1 (GBip fn ts) [] s w) by (cbn [cutfree]; now rewrite Hg, Hn).
  apply seach_ext. intros s1 w1. exact (answers_bip kb bf f fn ts s1 w1).
Qed.

(* non-vacuity.  n(1). n(2).   ?- n($X), print($X).   two answers; the output is "1" then "2" *)
Example C04_laws_witness :
  let kb : kbase := [([110; 47; 49], [mkRule (TComplex [TAtom [110]; TInt 1]) GNil; mkRule (TComplex [TAtom [110]; TInt 2]) GNil])] in
  let g := GOp OAnd [GCall (TComplex [TAtom [110]; TVar 1 [36; 88]]); GBip [112; 114; 105; 110; 116] (Some [TVar 1 [36; 88]])] in
  cutfree_kb kb = true /\ cutfree g = true /\
  exists a1 a2 w', answers kb 20 20 g [] (mkWorld 1 false None []) = Ok ([a1; a2], w') /\ out w' = [49; 50].
Proof. cbn zeta. split; [reflexivity|]. split; [reflexivity|]. do 3 eexists. split; vm_compute; reflexivity. Qed.

Print Assumptions C04_output_once_per_answer.

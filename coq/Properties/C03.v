(* C03 - not(G) succeeds once, without bindings, iff G has no answer.

   The reference search (Spec/SpecCut.v) asks G for its first answer only; not(G) continues -
   once, with the substitution it was entered with - iff there was none
   (C03_reference_not_cps).  PROVED: the engine yields exactly the answers of that reference
   search for every program (C03_refines = Proofs/RefineCut.refines_cut); and, directly on
   the machine, the behaviour of the not node in terms of the first request to G's node. *)
From Suiron Require Import Model.Term Model.Subst Model.Rename Model.Solve Spec.SpecSolve Spec.SpecCut Spec.Refine
  Proofs.SolveDead Proofs.SolveMisc Proofs.RefineCut.

Theorem C03_refines : forall kb bf q w fs R nd w1 m F R',
  canswers kb bf fs q w = Ok R ->
  make_base_node kb (GCall q) w = Ok (nd, w1) ->
  ask_all kb bf m F nd w1 = Ok R' -> R' = R.
Proof. exact refines_cut. Qed.

(* the reference search of not(G): G is asked with a continuation that halts at the first
   answer; no answer - continue with s itself (no binding of G); an answer - fail *)
Theorem C03_reference_not_cps : forall kb bf f g rest s w k,
  has_cut g = false ->
  csolve kb bf (S f) (GOp ONot (g :: rest)) s w k =
  do x <- csolve kb bf f g s w halt1;
  let '(a, w1, _) := x in
  match a with [] => k s w1 false | _ => Ok ([], w1, Go) end.
Proof. intros kb bf f g rest s w k Hc. rewrite csolve_S. unfold csolve_body. now rewrite Hc. Qed.

(* A fresh not(G) node asks G once.  It answers with exactly the substitution it was created
   with - no binding of G is visible - iff G has no answer, fails otherwise, and is spent:
   by C05 every later request fails (it succeeds at most once). *)
Theorem C03_not_node : forall kb bf f ss h tl ot w nd' r c w',
  next kb bf (S f) (NOp ONot ss false true (Some h) tl ot) w = Ok (nd', r, c, w') ->
  exists h' sol,
    next kb bf f h w = Ok (h', sol, c, w') /\
    r = match sol with Some _ => None | None => Some ss end /\
    dead nd'.
Proof.
  intros kb bf f ss h tl ot w nd' r c w'.
  rewrite next_S. unfold next_body. simpl. intro H.
  destruct (next kb bf f h w) as [[[[h' sol] c1] w1]| |] eqn:E; simpl in H; try discriminate.
  inversion H; subst. exists h', sol. repeat split; auto. simpl. right. reflexivity.
Qed.

(* The reference: the answers of not(G) under s are [s] when G has no answer, [] otherwise. *)
Theorem C03_reference_not : forall s evs,
  answers_of (not_events s evs) = match answers_of evs with [] => [s] | _ :: _ => [] end.
Proof.
  intros s evs.
  induction evs as [|e evs IH]; [reflexivity|]. destruct e as [a|o]; simpl; [reflexivity|exact IH].
Qed.

Definition C03_demo : bool :=
  let e2 := mkRule (TComplex [TAtom [101%N]; TInt 2]) GNil in
  let kb := [([101; 47; 49]%N, [e2])] in
  let X := TVar 1 [36; 88]%N in
  match make_node kb (GOp ONot [GCall (TComplex [TAtom [101%N]; X])]) [None; Some (TInt 3)] (mkWorld 1 false None []),
        make_node kb (GOp ONot [GCall (TComplex [TAtom [101%N]; X])]) [None; None] (mkWorld 1 false None []) with
  | Ok (n1, w1), Ok (n2, w2) =>
      match next kb 20 20 n1 w1, next kb 20 20 n2 w2 with
      | Ok (_, Some [None; Some (TInt 3)], _, _), Ok (_, None, _, _) => true
      | _, _ => false
      end
  | _, _ => false
  end.
Example C03_witness : C03_demo = true.
Proof. vm_compute. reflexivity. Qed.

Check C03_not_node : forall kb bf f ss h tl ot w nd' r c w',
  next kb bf (S f) (NOp ONot ss false true (Some h) tl ot) w = Ok (nd', r, c, w') ->
  exists h' sol,
    next kb bf f h w = Ok (h', sol, c, w') /\
    r = match sol with Some _ => None | None => Some ss end /\
    dead nd'.

Print Assumptions C03_refines.
Print Assumptions C03_reference_not_cps.
Print Assumptions C03_not_node.
Print Assumptions C03_reference_not.
